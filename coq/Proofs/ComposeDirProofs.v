(* C20: which directory of a compose holds the metadata, and which of the candidate file names is loaded *)
From PM Require Import Base.PyVal Model.ComposeDir.

Section Resolve.
  Variable exists_ : str -> bool.
  Variable listdir : str -> list str.

  Theorem resolve_prefers_compose p :
    exists_ (path_join (path_join p (lit "compose")) (lit "metadata/composeinfo.json")) = true ->
    resolve exists_ listdir p = path_join p (lit "compose").
  Proof. intros H. unfold resolve. rewrite H. reflexivity. Qed.

  Theorem resolve_direct p :
    exists_ (path_join (path_join p (lit "compose")) (lit "metadata/composeinfo.json")) = false ->
    (forall i, In i (listdir p) -> exists_ (path_join (path_join p i) (lit "metadata")) = false) ->
    resolve exists_ listdir p = p.
  Proof.
    intros H1 H2. unfold resolve. rewrite H1. destruct (negb (is_url p) && exists_ p); [|reflexivity].
    destruct (find _ (listdir p)) as [i|] eqn:E; [|reflexivity].
    apply find_some in E. destruct E as [Hin Hex]. rewrite (H2 i Hin) in Hex. discriminate.
  Qed.

  Theorem resolve_legacy p i :
    exists_ (path_join (path_join p (lit "compose")) (lit "metadata/composeinfo.json")) = false ->
    is_url p = false -> exists_ p = true ->
    In i (listdir p) -> exists_ (path_join (path_join p i) (lit "metadata")) = true ->
    (forall j, In j (listdir p) -> exists_ (path_join (path_join p j) (lit "metadata")) = true -> j = i) ->
    resolve exists_ listdir p = path_join p i.
  Proof.
    intros H1 Hu Hp Hin Hex Huniq. unfold resolve. rewrite H1, Hu, Hp. cbn [negb andb].
    destruct (find _ (listdir p)) as [j|] eqn:E.
    - apply find_some in E. destruct E as [Hj Hjx]. rewrite (Huniq j Hj Hjx). reflexivity.
    - exfalso. pose proof (find_none _ _ E i Hin) as Hn. cbv beta in Hn. congruence.
  Qed.

  Theorem find_file_first cp pre n post :
    (forall m, In m pre -> exists_ (path_join cp m) = false) -> exists_ (path_join cp n) = true ->
    find_file exists_ cp (pre ++ n :: post) = Ok (path_join cp n).
  Proof.
    intros Hpre Hn. unfold find_file. induction pre as [|m pre IH]; cbn [app find]; [rewrite Hn; reflexivity|].
    rewrite (Hpre m (or_introl eq_refl)). apply IH. intros m' Hm'. apply Hpre. right. exact Hm'.
  Qed.
End Resolve.

Theorem access_fills {A} (load : unit -> result A) o : load tt = Ok o -> access None load = (Some o, Ok o).
Proof. intros H. unfold access. rewrite H. reflexivity. Qed.

