(* C03: rpms / modules / extra-files documents are read back as written; the loops of the rpms 0.3 reader, which files
   every entry through Rpms.add (used for C10) *)
From PM Require Import Base.PyVal Base.Obj Model.Common Model.Manifests Model.ManifestDocs Proofs.Monad
  Proofs.CommonProofs Gen.Tables Gen.Validators.

(* the container classes have no validators of their own (obligation on the regenerated inventory) *)
Lemma rpms_container_valid : validate (F"rpms.Rpms") [] = Ok tt.
Proof. vm_compute. reflexivity. Qed.

Lemma modules_container_valid : validate (F"modules.Modules") [] = Ok tt.
Proof. vm_compute. reflexivity. Qed.

Lemma extra_container_valid : validate (F"extra_files.ExtraFiles") [] = Ok tt.
Proof. vm_compute. reflexivity. Qed.

Lemma wrap_doc_read mtype section c p d :
  str_eqb section (F"compose") = false -> compose_normal c -> wrap_doc mtype section c p = Ok d ->
  exists payload, deser_header mtype d = Ok (current_version, VERSION) /\ dget d (F"payload") = Ok payload /\
                  deser_compose VERSION payload = Ok c /\ dget payload section = Ok p.
Proof.
  intros Hsec Hn H. unfold wrap_doc in H. rewrite ser_header_ok in H. cbn [bind] in H. inv_bind H as cj Hc.
  apply Ok_inj in H. subst d. eexists. split; [apply deser_header_ser|]. split; [reflexivity|].
  split; [exact (deser_compose_ser c cj _ Hn Hc)|]. cbn [dget assoc]. rewrite Hsec, str_eqb_refl. reflexivity.
Qed.

Theorem rpms_doc_roundtrip c p d :
  compose_normal c -> dump_rpms c p = Ok d -> load_rpms d = Ok (c, p).
Proof.
  intros Hn H. unfold dump_rpms in H. rewrite rpms_container_valid in H. cbn [bind] in H.
  destruct (wrap_doc_read _ (F"rpms") _ _ _ eq_refl Hn H) as (payload & Hh & Hp & Hc & Hs).
  unfold load_rpms. rewrite Hh. cbn [bind snd]. rewrite Hp, version_gt_0_3. cbn [bind]. rewrite Hc. cbn [bind]. rewrite Hs. cbn [bind].
  rewrite rpms_container_valid. reflexivity.
Qed.

(* dump_modules and dump_extra are instances of the left side, load_modules and load_extra of the right *)
Lemma load_plain_roundtrip mtype section cls c p d :
  validate cls [] = Ok tt -> str_eqb section (F"compose") = false ->
  compose_normal c -> (check validate cls []; wrap_doc mtype section c p) = Ok d -> load_plain mtype section cls d = Ok (c, p).
Proof.
  intros Hv Hsec Hn H. rewrite Hv in H. destruct (wrap_doc_read _ _ _ _ _ Hsec Hn H) as (payload & Hh & Hp & Hc & Hs).
  unfold load_plain. rewrite Hh. cbn [bind snd]. rewrite Hp. cbn [bind]. rewrite Hc. cbn [bind]. rewrite Hs. cbn [bind].
  rewrite Hv. reflexivity.
Qed.

(* Rpms.deserialize_0_3: its four nested loops, body by body *)
Definition file_source (v a sr : str) (sd : pyval) (m : rpms_t) : result rpms_t :=
  match sd with
  | PNone => Ok m
  | sd =>
      do spath0 <- dget sd (F"path"); do spath <- get_str_r spath0;
      do ssig0 <- dget sd (F"sigkey"); do ssig <- get_ostr_r ssig0;
      rpms_add m v a sr spath ssig s_source None
  end.

Definition rpm_step (v a sr : str) (sd : pyval) (m : rpms_t) (rp : str * pyval) : result rpms_t :=
  do ty <- dget (snd rp) (F"type");
  let cat := if py_eq ty (PStr (F"package")) then PStr (F"binary") else ty in
  do cat_s <- match cat with PStr s => Ok s | _ => Err ValueError end;
  do path0 <- dget (snd rp) (F"path"); do path <- get_str_r path0;
  do sig0 <- dget (snd rp) (F"sigkey"); do sig <- get_ostr_r sig0;
  do m5 <- rpms_add m v a (fst rp) path sig cat_s (Some sr);
  file_source v a sr sd m5.

Definition srpm_step (vd : pyval) (v a : str) (m : rpms_t) (sr : str * pyval) : result rpms_t :=
  do srctab <- dget_default vd s_src (PDict []);
  do sd <- dget_default srctab (fst sr) PNone;
  do rpms <- items (snd sr);
  fold_left (fun acc rp => do m <- acc; rpm_step v a (fst sr) sd m rp) rpms (Ok m).

Definition arch_step (vd : pyval) (v : str) (m : rpms_t) (aa : str * pyval) : result rpms_t :=
  if str_eqb (fst aa) s_src then Ok m else
  do srpms <- items (snd aa);
  fold_left (fun acc sr => do m <- acc; srpm_step vd v (fst aa) m sr) srpms (Ok m).

Definition variant_step (m : rpms_t) (va : str * pyval) : result rpms_t :=
  do arches <- items (snd va);
  fold_left (fun acc aa => do m <- acc; arch_step (snd va) (fst va) m aa) arches (Ok m).

Lemma deser_rpms_0_3_eq man :
  deser_rpms_0_3 man = do variants <- items man; fold_left (fun acc va => do m <- acc; variant_step m va) variants (Ok []).
Proof. reflexivity. Qed.

Lemma file_source_inv v a sr sd m m' :
  file_source v a sr sd m = Ok m' -> (sd = PNone /\ m' = m) \/ exists p sg, rpms_add m v a sr p sg s_source None = Ok m'.
Proof.
  intros H. destruct sd; [left; apply Ok_inj in H; auto|..];
    (right; cbn [file_source] in H; inv_bind H as p0 G1; inv_bind H as p G2; inv_bind H as g0 G3; inv_bind H as g G4; eauto).
Qed.

Lemma rpm_step_inv v a sr sd m rp m' :
  rpm_step v a sr sd m rp = Ok m' -> exists p sg c m5, rpms_add m v a (fst rp) p sg c (Some sr) = Ok m5 /\ file_source v a sr sd m5 = Ok m'.
Proof.
  unfold rpm_step. intros H.
  inv_bind H as ty G1. inv_bind H as cat G2. inv_bind H as p0 G3. inv_bind H as p G4. inv_bind H as g0 G5. inv_bind H as g G6.
  inv_bind H as m5 G7. eauto 6.
Qed.

(* everything is filed through add: what add preserves holds of the converted manifest *)
Section Filed.
  Variable P : rpms_t -> Prop.
  Hypothesis Hadd : forall m v a n p sg c sr m', P m -> rpms_add m v a n p sg c sr = Ok m' -> P m'.

  Lemma file_source_pres v a sr sd m m' : P m -> file_source v a sr sd m = Ok m' -> P m'.
  Proof. intros Hm H. destruct (file_source_inv _ _ _ _ _ _ H) as [[_ ->]|(p & sg & H')]; [exact Hm|exact (Hadd _ _ _ _ _ _ _ _ _ Hm H')]. Qed.

  Lemma rpm_step_pres v a sr sd m rp m' : P m -> rpm_step v a sr sd m rp = Ok m' -> P m'.
  Proof.
    intros Hm H. destruct (rpm_step_inv _ _ _ _ _ _ _ H) as (p & sg & c & m5 & G & H').
    exact (file_source_pres _ _ _ _ _ _ (Hadd _ _ _ _ _ _ _ _ _ Hm G) H').
  Qed.

  Lemma srpm_step_pres vd v a m sr m' : P m -> srpm_step vd v a m sr = Ok m' -> P m'.
  Proof.
    intros Hm H. unfold srpm_step in H. inv_bind H as srctab G1. inv_bind H as sd G2. inv_bind H as rpms G3.
    revert H. apply fold_bind_inv; [|exact Hm]. intros m0 rp m1. apply rpm_step_pres.
  Qed.

  Lemma arch_step_pres vd v m aa m' : P m -> arch_step vd v m aa = Ok m' -> P m'.
  Proof.
    intros Hm H. unfold arch_step in H. destruct (str_eqb (fst aa) s_src); [apply Ok_inj in H; subst m'; exact Hm|].
    inv_bind H as srpms G. revert H. apply fold_bind_inv; [|exact Hm]. intros m0 sr m1. apply srpm_step_pres.
  Qed.

  Lemma variant_step_pres m va m' : P m -> variant_step m va = Ok m' -> P m'.
  Proof.
    intros Hm H. unfold variant_step in H. inv_bind H as arches G.
    revert H. apply fold_bind_inv; [|exact Hm]. intros m0 aa m1. apply arch_step_pres.
  Qed.

  Lemma deser_rpms_0_3_pres man m : P [] -> deser_rpms_0_3 man = Ok m -> P m.
  Proof.
    intros H0 H. rewrite deser_rpms_0_3_eq in H. inv_bind H as variants G.
    revert H. apply fold_bind_inv; [|exact H0]. intros m0 va m1. apply variant_step_pres.
  Qed.
End Filed.
