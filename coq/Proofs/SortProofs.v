(* C08: lists derived from unordered collections (image cells sorted by path) do not depend on iteration order *)
From PM Require Import Base.PyVal Base.Obj Model.Common Model.Images Proofs.Monad Proofs.KeyedSort.
From Coq Require Import Permutation.

Definition path_key (x : pyval) : str :=
  match x with PDict kv => match assoc (F"path") kv with Some (PStr s) => s | _ => [] end | _ => [] end.

Lemma insert_by_path_eq : insert_by_path = insert_by path_key true.
Proof. reflexivity. Qed.

Definition sort_by_path (ds : list pyval) : list pyval := fold_left (fun l d => insert_by_path d l) ds [].

Theorem sort_by_path_perm ds ds' :
  Permutation ds ds' -> NoDup (map path_key ds) -> sort_by_path ds = sort_by_path ds'.
Proof. unfold sort_by_path. rewrite insert_by_path_eq. apply sortl_by_perm_invariant. Qed.

Lemma ser_cell_eq imgs : ser_cell imgs = do ds <- mapM (fun im => ser_image (snd im)) imgs; Ok (sort_by_path ds).
Proof. apply (fold_mapM (fun im => ser_image (snd im)) (fun l d => insert_by_path d l)). Qed.

Theorem ser_cell_perm imgs imgs' ds :
  Permutation imgs imgs' ->
  mapM (fun im => ser_image (snd im)) imgs = Ok ds -> NoDup (map path_key ds) ->
  ser_cell imgs = ser_cell imgs'.
Proof.
  intros HP Hm Hnd. pose proof Hm as HF. apply mapM_Forall2 in HF.
  destruct (Permutation_Forall2 HP HF) as (ds' & HPd & HF'). apply mapM_Forall2 in HF'.
  rewrite !ser_cell_eq, Hm, HF'. cbn [bind]. f_equal.
  apply sort_by_path_perm; assumption.
Qed.
