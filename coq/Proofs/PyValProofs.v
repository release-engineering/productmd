(* Python's == on values: py_eq decides equality of normal forms *)
From PM Require Import Base.PyVal Base.Obj.

Lemma pyval_eqb_eq a : forall b, pyval_eqb a b = true <-> a = b.
Proof.
  induction a as [|x|x|x|x|l IH|kv IH] using pyval_ind'; intros b; destruct b; cbn [pyval_eqb];
    try (split; [discriminate|discriminate]); try (split; congruence).
  - rewrite Bool.eqb_true_iff. split; congruence.
  - rewrite Z.eqb_eq. split; congruence.
  - rewrite str_eqb_eq. split; congruence.
  - rewrite str_eqb_eq. split; congruence.
  - rename l0 into l2. revert l2. induction IH as [|x l Hx _ IHl]; intros l2; destruct l2 as [|y l2]; try (split; congruence).
    rewrite andb_true_iff, Hx. specialize (IHl l2). split.
    + intros [-> H]. apply IHl in H. congruence.
    + intros H. injection H as -> ->. split; [reflexivity|]. apply IHl. reflexivity.
  - rename kv0 into kv2. revert kv2. induction IH as [|[k x] kv Hx _ IHl]; intros kv2; destruct kv2 as [|[k2 y] kv2]; try (split; congruence).
    cbn [snd] in Hx. rewrite !andb_true_iff, str_eqb_eq, Hx. specialize (IHl kv2). split.
    + intros [[-> ->] H]. apply IHl in H. congruence.
    + intros H. injection H as -> -> ->. repeat split. apply IHl. reflexivity.
Qed.

Lemma py_eq_true a b : py_eq a b = true <-> norm a = norm b.
Proof. unfold py_eq. apply pyval_eqb_eq. Qed.

Lemma py_eq_refl a : py_eq a a = true.
Proof. apply py_eq_true. reflexivity. Qed.

Lemma py_eq_sym a b : py_eq a b = py_eq b a.
Proof. apply Bool.eq_true_iff_eq. rewrite !py_eq_true. split; congruence. Qed.

Lemma py_eq_trans a b c : py_eq a b = true -> py_eq b c = true -> py_eq a c = true.
Proof. rewrite !py_eq_true. congruence. Qed.

Lemma norm_list l : norm (PList l) = PList (map norm l).
Proof. reflexivity. Qed.
