(* C17: what ser_general, the writer of the legacy [general] section, puts there, option by option, in terms of the tree object *)
From PM Require Import Base.PyVal Base.Obj Base.Ini Model.Common Model.TreeInfo Proofs.Monad Proofs.PyValProofs
  Proofs.IniLemmas.

Definition g : str := Eval cbv in F"general".

Theorem general_mirror x mv p t :
  ser_general x mv p = Ok t ->
  exists name_s ver_s arch_s ts ts_s variant v,
    getf (ti_release x) (F"name") = PStr name_s /\ getf (ti_release x) (F"version") = PStr ver_s /\
    getf (ti_tree x) (F"arch") = PStr arch_s /\
    py_int (getf (ti_tree x) (F"build_timestamp")) = Ok ts /\ py_str_num ts = Ok ts_s /\
    ini_get t g (F"family") = Ok name_s /\ ini_get t g (F"version") = Ok ver_s /\
    ini_get t g (F"name") = Ok (name_s ++ 32%N :: ver_s) /\
    ini_get t g (F"arch") = Ok arch_s /\ ini_get t g (F"platforms") = Ok (platforms_str (ti_tree x)) /\
    ini_get t g (F"timestamp") = Ok ts_s /\
    ini_get t g (F"variants") = Ok (join [c_comma] (map fst (sort_keys (ti_variants x)))) /\
    variant = match mv with Some m => m | None => hd [] (map fst (sort_keys (ti_variants x))) end /\
    (mv = None -> map fst (sort_keys (ti_variants x)) <> []) /\
    ini_get t g (F"variant") = Ok variant /\
    assoc variant (ti_variants x) = Some v /\
    (forall pk, getf (tv_paths v) (F"packages") = PStr pk -> ini_get t g (F"packagedir") = Ok pk) /\
    (forall r, getf (tv_paths v) (F"repository") = PStr r -> ini_get t g (F"repository") = Ok r) /\
    (getf (tv_paths v) (F"packages") = PNone -> getf (ti_tree x) (F"arch") = PStr (F"src") ->
       forall s, getf (tv_paths v) (F"source_packages") = PStr s -> ini_get t g (F"packagedir") = Ok s) /\
    (getf (tv_paths v) (F"repository") = PNone -> getf (ti_tree x) (F"arch") = PStr (F"src") ->
       forall s, getf (tv_paths v) (F"source_repository") = PStr s -> ini_get t g (F"repository") = Ok s).
Proof.
  unfold ser_general. change g with (F"general"). intros H.
  (* the conclusion is large: it stays folded while the hypotheses are taken apart, so that no case analysis carries it *)
  match goal with |- ?G => set (C := G) end.
  inv_bind H as p0 G0. inv_bind H as ts Gts. inv_bind H as ts_s Gtss. inv_bind H as p1 G1.
  inv_bind H as p2 G2. inv_bind H as variant Gv. inv_bind H as p3 G3. inv_bind H as v Gl. inv_bind H as p4 G4.
  destruct (sets_get _ _ _ _ G1 eq_refl) as [S1 _].
  destruct (S1 (F"family") _ eq_refl) as (name_s & Hname & Gfam).
  destruct (S1 (F"version") _ eq_refl) as (ver_s & Hver & Gver).
  destruct (S1 (F"arch") _ eq_refl) as (arch_s & Harch & Garch).
  destruct (S1 (F"name") _ eq_refl) as (nm & Hnm & Gnm).
  destruct (S1 (F"platforms") _ eq_refl) as (pl & Hpl & Gpl).
  destruct (S1 (F"timestamp") _ eq_refl) as (tss & Htss & Gts').
  rewrite Hname, Hver in Hnm. cbn [fmt_s] in Hnm. injection Hnm as <-. injection Hpl as <-. injection Htss as <-.
  (* the four later steps each set, or leave alone, one other option *)
  pose proof (fun o => ini_set_get_other _ _ _ _ _ (F"general") o G2) as K2. pose proof (fun o => ini_set_get_other _ _ _ _ _ (F"general") o G3) as K3.
  (* the last two steps of ser_general are set_or_fallback (IniLemmas), by conversion *)
  destruct (set_or_fallback_get _ _ _ _ _ _ _ _ G4) as (K4 & P4 & Q4). destruct (set_or_fallback_get _ _ _ _ _ _ _ _ H) as (K5 & P5 & Q5).
  assert (Hlater : forall o, o <> F"variants" -> o <> F"variant" -> o <> F"packagedir" -> o <> F"repository" ->
                             ini_get t (F"general") o = ini_get p1 (F"general") o).
  { intros o N2 N3 N4 N5. rewrite (K5 o N5), (K4 o N4), K3, K2 by (right; assumption). reflexivity. }
  subst C. exists name_s, ver_s, arch_s, ts, ts_s, variant, v.
  repeat split; try assumption.
  1-6: rewrite Hlater by discriminate; assumption.
  - rewrite K5, K4, K3 by (try right; discriminate). exact (ini_set_get_same _ _ _ _ _ G2).
  - destruct mv as [m|]; [injection Gv as <-; reflexivity|].
    destruct (map fst (sort_keys (ti_variants x))) as [|k ks]; [discriminate|]. injection Gv as <-. reflexivity.
  - intros ->. destruct (map fst (sort_keys (ti_variants x))); discriminate.
  - rewrite K5, K4 by discriminate. exact (ini_set_get_same _ _ _ _ _ G3).
  - unfold lookup_top, of_option in Gl. destruct (assoc variant (ti_variants x)); [congruence|discriminate].
  - intros pk Hpk. rewrite K5 by discriminate. exact (P4 pk Hpk).
  - intros Hpk Hsrc s Hs. rewrite K5 by discriminate. apply (Q4 Hpk); [rewrite Hsrc; apply py_eq_refl|exact Hs].
  - intros Hr Hsrc s Hs. apply (Q5 Hr); [rewrite Hsrc; apply py_eq_refl|exact Hs].
Qed.
