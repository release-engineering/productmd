(* C13: parse_nvra returns the parts a name-[epoch:]version-release.arch string was formatted from (nvra_roundtrip_gen),
   under hypotheses on single characters only; C13Proofs.v instantiates them with the property's alphabet. *)
From PM Require Import Base.PyVal Model.Nvra Proofs.ListLemmas Proofs.StrLemmas Proofs.StrDec.

Lemma after_slashes_noslash b : ~ In c_slash b -> after_slashes b = [].
Proof.
  induction b as [|x b IH]; cbn; intros H; [reflexivity|].
  destruct (N.eqb_spec x c_slash) as [->|Hn]; [exfalso; apply H; left; reflexivity|].
  apply IH. intros Hin; apply H; right; exact Hin.
Qed.

Lemma after_slashes_app d b :
  after_slashes (d ++ c_slash :: b) = map (fun x => x ++ c_slash :: b) (after_slashes d) ++ b :: after_slashes b.
Proof.
  induction d as [|x d IH]; cbn [app after_slashes map].
  - rewrite N.eqb_refl. reflexivity.
  - destruct (N.eqb x c_slash); cbn [map app]; rewrite IH; reflexivity.
Qed.

Lemma first_some_app {A B} (f : A -> option B) l1 l2 :
  first_some f (l1 ++ l2) = match first_some f l1 with Some y => Some y | None => first_some f l2 end.
Proof. induction l1 as [|x l1 IH]; cbn; [reflexivity|]. destruct (f x); [reflexivity|exact IH]. Qed.

Lemma candidates_dir dir b p :
  (dir = [] \/ exists d, dir = d ++ [c_slash]) -> ~ In c_slash b ->
  parse_core b = Some p -> first_some parse_core (candidates (dir ++ b)) = Some p.
Proof.
  intros [->|[d ->]] Hb Hp; unfold candidates.
  - cbn [app]. rewrite after_slashes_noslash by exact Hb. cbn. rewrite Hp. reflexivity.
  - rewrite <- app_assoc. cbn [app]. rewrite after_slashes_app, (after_slashes_noslash b Hb).
    rewrite rev_app_distr. cbn [rev app first_some]. rewrite Hp. reflexivity.
Qed.

Definition fmt (name : str) (eo : option N) (version release arch : str) : str :=
  name ++ [c_dash] ++ (match eo with Some e => show_dec e ++ [c_colon] | None => [] end) ++
  version ++ [c_dash] ++ release ++ [c_dot] ++ arch.

Definition epoch_of (eo : option N) : N := match eo with Some e => e | None => 0 end.

Definition ev (eo : option N) (version : str) : str :=
  (match eo with Some e => show_dec e ++ [c_colon] | None => [] end) ++ version.

Lemma fmt_assoc name eo version release arch :
  fmt name eo version release arch = ((name ++ c_dash :: ev eo version) ++ c_dash :: release) ++ c_dot :: arch.
Proof. unfold fmt, ev. repeat (rewrite <- ?app_assoc; cbn [app]). reflexivity. Qed.

Lemma ev_notin c eo version : is_digit c = false -> c <> c_colon -> ~ In c version -> ~ In c (ev eo version).
Proof.
  intros Hd Hc Hv. apply not_in_app; [|exact Hv]. destruct eo as [e|]; [|intros []].
  apply not_in_app; [exact (show_dec_notin c e Hd)|intros [H|[]]; congruence].
Qed.

Lemma fmt_notin c name eo version release arch :
  is_digit c = false -> c <> c_dash -> c <> c_colon -> c <> c_dot ->
  ~ In c name -> ~ In c version -> ~ In c release -> ~ In c arch -> ~ In c (fmt name eo version release arch).
Proof.
  intros Hd H1 H2 H3 Hn Hv Hr Ha. rewrite fmt_assoc.
  repeat (apply not_in_app; [|intros [H|H]; [congruence|revert H]]); try assumption. apply ev_notin; assumption.
Qed.

Lemma parse_core_fmt name eo version release arch :
  ~ In c_dash version -> ~ In c_colon version ->
  ~ In c_dash release -> ~ In c_dot arch ->
  parse_core (fmt name eo version release arch) =
  Some {| n_name := name; n_epoch := epoch_of eo; n_version := version; n_release := release; n_arch := arch |}.
Proof.
  intros Hv Hvc Hr Ha. unfold parse_core.
  rewrite fmt_assoc, (split_last_app _ _ _ Ha), (split_last_app _ _ _ Hr), (split_last_app _ _ _ (ev_notin c_dash eo _ eq_refl ltac:(discriminate) Hv)).
  destruct eo as [e|]; unfold ev; cbn [epoch_of].
  - rewrite <- app_assoc. cbn [app].
    rewrite (span_all is_digit (show_dec e) (c_colon :: version)); [|apply show_dec_digits|reflexivity].
    destruct (show_dec e) as [|d ds] eqn:E; [exfalso; exact (show_dec_nonempty e E)|].
    unfold c_colon. rewrite <- E, parse_show_dec. reflexivity.
  - cbn [app]. pose proof (span_app is_digit version) as Hs.
    destruct (span is_digit version) as [ds rest].
    destruct ds as [|d ds]; [reflexivity|].
    destruct rest as [|x rest]; [reflexivity|].
    destruct (N.eqb_spec x 58) as [->|Hx].
    + exfalso. apply Hvc. rewrite Hs. apply in_or_app. right. left. reflexivity.
    + destruct x as [|px]; [reflexivity|].
      (* x <> 58: the epoch pattern does not apply *)
      repeat (destruct px as [px|px|]; try reflexivity); exfalso; apply Hx; reflexivity.
Qed.

(* an arch other than "rpm" is not taken for the ".rpm" suffix *)
Lemma strip_dot_rpm x arch sfx :
  ~ In c_dot arch -> arch <> lit "rpm" -> sfx = [] \/ sfx = dot_rpm ->
  (if endswith ((x ++ c_dot :: arch) ++ sfx) dot_rpm then drop_last 4 ((x ++ c_dot :: arch) ++ sfx) else (x ++ c_dot :: arch) ++ sfx)
  = x ++ c_dot :: arch.
Proof.
  intros Ha Harpm [->| ->].
  - rewrite app_nil_r. destruct (endswith (x ++ c_dot :: arch) dot_rpm) eqn:E; [|reflexivity].
    apply endswith_spec in E. destruct E as [t E]. destruct Harpm.
    apply (split_last_inj c_dot x arch t (lit "rpm") E Ha). cbv. intros [H|[H|[H|[]]]]; discriminate.
  - rewrite endswith_app. apply (drop_last_app _ dot_rpm).
Qed.

Lemma strip_final_nl_id s : ~ In c_nl s -> strip_final_nl s = s.
Proof.
  intros H. unfold strip_final_nl. destruct (endswith s [c_nl]) eqn:E; [|reflexivity].
  apply endswith_spec in E. destruct E as [t ->]. destruct H. apply in_or_app. right. left. reflexivity.
Qed.

Theorem nvra_roundtrip_gen dir name eo version release arch sfx :
  (dir = [] \/ exists d, dir = d ++ [c_slash]) -> ~ In c_nl dir ->
  (sfx = [] \/ sfx = dot_rpm) ->
  ~ In c_slash name -> ~ In c_nl name ->
  ~ In c_dash version -> ~ In c_slash version -> ~ In c_nl version -> ~ In c_colon version ->
  ~ In c_dash release -> ~ In c_slash release -> ~ In c_nl release ->
  ~ In c_dot arch -> ~ In c_slash arch -> ~ In c_nl arch -> arch <> lit "rpm" ->
  parse_nvra (dir ++ fmt name eo version release arch ++ sfx) =
  Ok {| n_name := name; n_epoch := epoch_of eo; n_version := version; n_release := release; n_arch := arch |}.
Proof.
  intros Hdir Hdnl Hsfx Hn1 Hn2 Hv1 Hv2 Hv3 Hv4 Hr1 Hr2 Hr3 Ha1 Ha2 Ha3 Harpm.
  set (b := fmt name eo version release arch).
  assert (Hb_nl : ~ In c_nl b) by (apply fmt_notin; (assumption || discriminate || reflexivity)).
  assert (Hb_sl : ~ In c_slash b) by (apply fmt_notin; (assumption || discriminate || reflexivity)).
  assert (Hs : (if endswith ((dir ++ b) ++ sfx) dot_rpm then drop_last 4 ((dir ++ b) ++ sfx) else (dir ++ b) ++ sfx) = dir ++ b).
  { unfold b. rewrite fmt_assoc, (app_assoc dir). apply strip_dot_rpm; assumption. }
  unfold parse_nvra, match_nvra. rewrite app_assoc, Hs, strip_final_nl_id by (apply not_in_app; assumption).
  rewrite (proj2 (memc_false _ _) (not_in_app _ _ _ Hdnl Hb_nl)).
  rewrite (candidates_dir dir b _ Hdir Hb_sl (parse_core_fmt name eo version release arch Hv1 Hv4 Hr1 Ha1)). reflexivity.
Qed.
