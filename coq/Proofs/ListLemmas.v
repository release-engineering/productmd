(* facts about plain lists that the standard library lacks *)
From Coq Require Import List Bool PeanoNat.
Import ListNotations.

Lemma fold_left_inv {S O} (P : S -> Prop) (f : S -> O -> S) ops :
  (forall s o, In o ops -> P s -> P (f s o)) -> forall s, P s -> P (fold_left f ops s).
Proof.
  induction ops as [|o ops IH]; intros Hf s Hs; [exact Hs|]. cbn [fold_left].
  apply IH; [intros s' o' Hin; apply Hf; right; exact Hin|apply Hf; [left; reflexivity|exact Hs]].
Qed.

Lemma fold_left_map {A B S} (f : S -> B -> S) (g : A -> B) l s : fold_left f (map g l) s = fold_left (fun s x => f s (g x)) l s.
Proof. revert s. induction l as [|x l IH]; intros s; [reflexivity|apply IH]. Qed.

Lemma fold_left_flat_map_map {A B C S} (f : S -> C -> S) (g : A -> B -> C) (items : A -> list B) l s :
  fold_left f (flat_map (fun a => map (g a) (items a)) l) s = fold_left (fun s a => fold_left (fun s x => f s (g a x)) (items a) s) l s.
Proof. revert s. induction l as [|a l IH]; intros s; [reflexivity|]. cbn [flat_map fold_left]. rewrite fold_left_app, fold_left_map. apply IH. Qed.

Lemma fold_left_snoc {A} (l l0 : list A) : fold_left (fun acc x => acc ++ [x]) l l0 = l0 ++ l.
Proof. revert l0. induction l as [|x l IH]; intros l0; cbn [fold_left]; [symmetry; apply app_nil_r|]. rewrite IH, <- app_assoc. reflexivity. Qed.

Lemma forallb_imp {A} (p q : A -> bool) l : (forall x, p x = true -> q x = true) -> forallb p l = true -> forallb q l = true.
Proof. rewrite !forallb_forall. auto. Qed.

Lemma forallb_notin {A} (p : A -> bool) s c : forallb p s = true -> p c = false -> ~ In c s.
Proof. intros H Hc Hin. rewrite forallb_forall in H. rewrite (H _ Hin) in Hc. discriminate. Qed.

Lemma not_in_app {A} (x : A) a b : ~ In x a -> ~ In x b -> ~ In x (a ++ b).
Proof. rewrite in_app_iff. tauto. Qed.

Lemma filter_all {A} (p : A -> bool) l : (forall x, In x l -> p x = true) -> filter p l = l.
Proof.
  induction l as [|x l IH]; intros H; [reflexivity|]. cbn [filter]. rewrite (H x (or_introl eq_refl)), IH; [reflexivity|].
  intros y Hy. apply H. right. exact Hy.
Qed.

Lemma filter_none {A} (p : A -> bool) l : (forall x, In x l -> p x = false) -> filter p l = [].
Proof.
  induction l as [|x l IH]; intros H; [reflexivity|]. cbn [filter]. rewrite (H x (or_introl eq_refl)). apply IH.
  intros y Hy. apply H. right. exact Hy.
Qed.

Lemma flat_map_idem {A} (f : A -> list A) l : (forall x y, In y (f x) -> f y = [y]) -> flat_map f (flat_map f l) = flat_map f l.
Proof.
  intros Hf. assert (Hfix : forall l, (forall y, In y l -> f y = [y]) -> flat_map f l = l).
  { induction l0 as [|y l0 IH]; intros H; [reflexivity|]. cbn [flat_map]. rewrite (H y (or_introl eq_refl)), IH; [reflexivity|].
    intros z Hz. apply H. right. exact Hz. }
  apply Hfix. intros y Hy. apply in_flat_map in Hy. destruct Hy as (x & _ & Hy). exact (Hf x y Hy).
Qed.

Lemma nodup_map_inj {A B} (f : A -> B) l a b : NoDup (map f l) -> In a l -> In b l -> f a = f b -> a = b.
Proof.
  induction l as [|y l IH]; intros Hn Ha Hb E; [destruct Ha|]. cbn [map] in Hn. inversion Hn as [|? ? Hx Hr]; subst.
  destruct Ha as [->|Ha], Hb as [->|Hb]; [reflexivity| | |exact (IH Hr Ha Hb E)]; exfalso; apply Hx.
  - rewrite E. apply in_map. exact Hb.
  - rewrite <- E. apply in_map. exact Ha.
Qed.

Lemma NoDup_app_intro {A} (a b : list A) :
  NoDup a -> NoDup b -> (forall x, In x a -> ~ In x b) -> NoDup (a ++ b).
Proof.
  intros Ha Hb Hd. induction Ha as [|x a Hx Ha IH]; cbn; [exact Hb|].
  constructor.
  - rewrite in_app_iff. intros [H|H]; [contradiction|]. exact (Hd x (or_introl eq_refl) H).
  - apply IH. intros y Hy. apply Hd. right. exact Hy.
Qed.

Lemma nodup_app_inv {A} (a b : list A) : NoDup (a ++ b) -> NoDup a /\ NoDup b /\ (forall x, In x a -> In x b -> False).
Proof.
  induction a as [|x a IH]; cbn [app]; intros H.
  - split; [constructor|]. split; [exact H|intros ? []].
  - inversion H as [|? ? Hx Hr]; subst. destruct (IH Hr) as (Ha & Hb & Hd). split; [|split; [exact Hb|]].
    + constructor; [|exact Ha]. intros Hin. apply Hx. apply in_or_app. left. exact Hin.
    + intros y [->|Hy] Hyb; [apply Hx; apply in_or_app; right; exact Hyb|exact (Hd y Hy Hyb)].
Qed.

Lemma nodup_flat_map_inj {A B} (g : A -> list B) l a b x :
  NoDup (flat_map g l) -> In a l -> In b l -> In x (g a) -> In x (g b) -> a = b.
Proof.
  induction l as [|y l IH]; intros Hn Ha Hb Hxa Hxb; [destruct Ha|].
  cbn [flat_map] in Hn. apply nodup_app_inv in Hn. destruct Hn as (_ & H2 & H3).
  destruct Ha as [->|Ha], Hb as [->|Hb]; [reflexivity| | |exact (IH H2 Ha Hb Hxa Hxb)]; destruct (H3 x); auto; apply in_flat_map; eauto.
Qed.

Lemma NoDup_flat_map {A B} (f : A -> list B) l :
  NoDup l -> (forall x, In x l -> NoDup (f x)) ->
  (forall x y e, In x l -> In y l -> x <> y -> In e (f x) -> In e (f y) -> False) ->
  NoDup (flat_map f l).
Proof.
  intros Hl Hf Hd. induction Hl as [|x l Hx Hl IH]; cbn [flat_map]; [constructor|].
  apply NoDup_app_intro.
  - apply Hf. left. reflexivity.
  - apply IH; [intros y Hy; apply Hf; right; exact Hy|]. intros y z e Hy Hz. apply Hd; right; assumption.
  - intros e He1 He2. apply in_flat_map in He2. destruct He2 as (y & Hy & He2).
    apply (Hd x y e); auto using in_eq, in_cons. intros ->. contradiction.
Qed.

Lemma nodup_flat_map_in {A B} (g : A -> list B) l a : NoDup (flat_map g l) -> In a l -> NoDup (g a).
Proof.
  induction l as [|y l IH]; intros Hn []; cbn [flat_map] in Hn; apply nodup_app_inv in Hn; destruct Hn as (H1 & H2 & _).
  - subst. exact H1.
  - exact (IH H2 H).
Qed.

(* the nested fixes by which a recursion over a tree ranges over its keyed children, read as [In] and [flat_map] *)
Lemma fix_all_iff {K B} (Q : B -> Prop) (cs : list (K * B)) :
  (fix all (cs : list (K * B)) : Prop := match cs with [] => True | (_, c) :: cs' => Q c /\ all cs' end) cs <->
  forall k c, In (k, c) cs -> Q c.
Proof.
  induction cs as [|[k c] cs IH]; [split; [intros _ k c []|exact (fun _ => I)]|]. rewrite IH. split.
  - intros [Hc Hr] k' c' [E|Hin]; [injection E as <- <-; exact Hc|exact (Hr k' c' Hin)].
  - intros H. split; [apply (H k c); left; reflexivity|]. intros k' c' Hin. apply (H k' c'). right. exact Hin.
Qed.

Lemma fix_allb_iff {K B} (q : B -> bool) (cs : list (K * B)) :
  (fix all (cs : list (K * B)) : bool := match cs with [] => true | (_, c) :: cs' => q c && all cs' end) cs = true <->
  forall k c, In (k, c) cs -> q c = true.
Proof.
  induction cs as [|[k c] cs IH]; [split; [intros _ k c []|reflexivity]|]. rewrite andb_true_iff, IH. split.
  - intros [Hc Hr] k' c' [E|Hin]; [injection E as <- <-; exact Hc|exact (Hr k' c' Hin)].
  - intros H. split; [apply (H k c); left; reflexivity|]. intros k' c' Hin. apply (H k' c'). right. exact Hin.
Qed.

Lemma fix_app_flat_map {K B C} (g : B -> list C) (cs : list (K * B)) :
  (fix go (cs : list (K * B)) : list C := match cs with [] => [] | (_, c) :: cs' => g c ++ go cs' end) cs =
  flat_map (fun kc => g (snd kc)) cs.
Proof. induction cs as [|[k c] cs IH]; [reflexivity|]. cbn [flat_map snd]. rewrite IH. reflexivity. Qed.

Lemma firstn_app_exact {A} n (a b : list A) : length a = n -> firstn n (a ++ b) = a.
Proof. intros <-. rewrite <- (Nat.add_0_r (length a)), firstn_app_2. apply app_nil_r. Qed.

Lemma skipn_app_exact {A} n (a b : list A) : length a = n -> skipn n (a ++ b) = b.
Proof. intros <-. rewrite skipn_app, skipn_all, Nat.sub_diag. reflexivity. Qed.
