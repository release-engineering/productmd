(* C01: the release and base-product sections of a composeinfo survive serialize / deserialize *)
From PM Require Import Model.ComposeInfo Proofs.PyValProofs Proofs.CommonProofs Proofs.RuleSem Gen.Tables.

Definition mk_release (name version short ty : pyval) (lay internal : bool) : obj :=
  [(F"name", name); (F"version", version); (F"short", short); (F"type", ty); (F"is_layered", PBool lay); (F"internal", PBool internal)].
Definition mk_base_product (name version short ty : pyval) : obj :=
  [(F"name", name); (F"version", version); (F"short", short); (F"type", ty)].

Definition release_entries (cls : str) (r : obj) : list (str * pyval) :=
  let base := [(F"name", getf r (F"name")); (F"version", getf r (F"version")); (F"short", getf r (F"short")); (F"type", getf r (F"type"))] in
  if str_eqb cls release_cls
  then (if truthy (getf r (F"is_layered")) then base ++ [(F"is_layered", py_bool (getf r (F"is_layered")))] else base)
       ++ [(F"internal", py_bool (getf r (F"internal")))]
  else base.

Lemma ser_release_inv cls sec r x :
  ser_release cls sec r = Ok x -> validate cls r = Ok tt /\ x = (sec, PDict (release_entries cls r)).
Proof.
  unfold ser_release. destruct (validate cls r) as [[]|e]; cbn [bind]; [|discriminate].
  intros H. split; [reflexivity|]. unfold release_entries. congruence.
Qed.

Lemma py_eq_str v s : py_eq v (PStr s) = true -> v = PStr s.
Proof. rewrite py_eq_true. destruct v; cbn [norm]; try discriminate; try congruence. Qed.

Lemma py_in_strs v l : py_in v (map PStr l) = true -> exists s, v = PStr s /\ In s l.
Proof.
  induction l as [|x l IH]; cbn [map py_in]; [discriminate|]. intros H. apply orb_true_iff in H. destruct H as [H|H].
  - exists x. split; [exact (py_eq_str _ _ H)|left; reflexivity].
  - destruct (IH H) as (s & -> & Hs). exists s. split; [reflexivity|right; exact Hs].
Qed.

Lemma valid_value cls o f vals :
  In ([], AValue f (map PStr vals)) (rules_of (validators_of cls)) -> validate cls o = Ok tt -> exists s, getf o f = PStr s /\ In s vals.
Proof.
  intros Hin Hv. unfold validate, validate_with in Hv. apply run_validators_iff in Hv. destruct Hv as [Hr _].
  rewrite Forall_forall in Hr. exact (py_in_strs _ _ (Hr _ Hin)).
Qed.

(* obligations on the regenerated tables *)
Lemma release_types_lowercase t : In t RELEASE_TYPES -> lower t = t.
Proof.
  assert (H : forallb (fun t => str_eqb (lower t) t) RELEASE_TYPES = true) by (vm_compute; reflexivity).
  rewrite forallb_forall in H. intros Hin. apply str_eqb_eq. exact (H t Hin).
Qed.

Lemma release_type_rule :
  In ([], AValue (F"type") (map PStr RELEASE_TYPES)) (rules_of (validators_of release_cls)).
Proof. vm_compute. repeat (first [left; reflexivity|right]). Qed.

(* the validator and [lower] are made opaque before the lookups are evaluated: what is computed is the reader's walk
   through the written section *)
Theorem release_roundtrip name version short ty lay internal sec j kv :
  let r := mk_release name version short ty lay internal in
  ser_release release_cls (F"release") r = Ok (sec, j) -> dget (PDict kv) (F"release") = Ok j ->
  deser_release VERSION (PDict kv) = Ok r.
Proof.
  intros r Hs Hd. apply ser_release_inv in Hs. destruct Hs as [Hv E]. injection E as _ ->.
  destruct (valid_value _ _ _ _ release_type_rule Hv) as (t & Ht & Hin). apply release_types_lowercase in Hin.
  change (getf r (F"type")) with ty in Ht. subst ty r.
  unfold deser_release, py_lower. rewrite version_gt_0_3, Hd.
  set (V := validate release_cls) in *. set (low := lower) in *. clearbody V low.
  destruct lay; vm_compute; rewrite Hin; vm_compute in Hv; rewrite Hv; reflexivity.
Qed.

Theorem base_product_roundtrip name version short ty sec j kv :
  let b := mk_base_product name version short ty in
  ser_release bp_cls (F"base_product") b = Ok (sec, j) -> dget (PDict kv) (F"base_product") = Ok j ->
  deser_base_product (PDict kv) = Ok b.
Proof.
  intros b Hs Hd. apply ser_release_inv in Hs. destruct Hs as [Hv E]. injection E as _ ->.
  unfold deser_base_product. rewrite Hd. subst b.
  (* as in release_roundtrip: the validator is a variable while the reader's four lookups are evaluated *)
  set (V := validate bp_cls) in *. clearbody V. vm_compute. vm_compute in Hv. rewrite Hv. reflexivity.
Qed.

Example release_roundtrip_nonvacuous :
  exists sec j, ser_release release_cls (F"release")
                  (mk_release (PStr (F"Fedora")) (PStr (F"22")) (PStr (F"F")) (PStr (F"updates")) true false) = Ok (sec, j).
Proof. eexists. eexists. vm_compute. reflexivity. Qed.
