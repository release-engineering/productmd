(* C07: what a successful treeinfo load returns has passed every validator the writer runs, at every depth of the variant tree *)
From PM Require Import Base.PyVal Base.Obj Base.Ini Model.Common Model.TreeInfo
     Proofs.Monad Proofs.ListLemmas Proofs.TreeInfoReadBack.

(* every child of t, at every depth, passed the Variant validator in the context of its own parent; the parent of t itself is
   not consulted (t's own validation is stated beside each use: tv_children_valid, ti_variants_valid) *)
Fixpoint tv_valid (parent_uid : option pyval) (t : tvar) : Prop :=
  match t with
  | TV f paths children =>
      (fix all (cs : list (str * tvar)) : Prop :=
         match cs with
         | [] => True
         | (_, c) :: cs' => (tvalidate (F"treeinfo.Variant") (tv_ctx (Some (getf f (F"uid"))) c) = Ok tt /\
                             tv_valid (Some (getf f (F"uid"))) c) /\ all cs'
         end) children
  end.

Definition tv_children_valid (pu : pyval) (cs : list (str * tvar)) : Prop :=
  forall k c, In (k, c) cs -> tvalidate (F"treeinfo.Variant") (tv_ctx (Some pu) c) = Ok tt /\ tv_valid (Some pu) c.

Lemma tv_valid_unfold parent f paths children :
  tv_valid parent (TV f paths children) <-> tv_children_valid (getf f (F"uid")) children.
Proof. exact (fix_all_iff _ children). Qed.

Lemma deser_tvar_valid fuel : forall src03 t parent uid addon v,
  deser_tvar fuel src03 t parent uid addon = Ok v -> tv_valid parent v.
Proof.
  induction fuel as [|fuel IH]; intros src03 t parent uid addon v H; cbn [deser_tvar] in H; [discriminate|].
  inv_bind H as u0 G0. inv_bind H as id Gi. inv_bind H as uid' Gu. inv_bind H as name Gn. inv_bind H as ty Gt.
  inv_bind H as children Hch. inv_bind H as u1 G1. injection H as <-.
  apply tv_valid_unfold. change (tv_children_valid (PStr uid') children).
  destruct (has_option t _ (F"addons")); [|injection Hch as <-; intros ? ? []].
  inv_bind Hch as al Gal. revert Hch.
  apply (fold_bind_inv (tv_children_valid (PStr uid'))); [|intros ? ? []].
  intros cs cu cs' Hacc Hs.
  inv_bind Hs as c Hc. inv_bind Hs as [] Hvc. inv_bind Hs as ckey Gk.
  destruct (assoc ckey cs); [discriminate|]. injection Hs as <-.
  intros k c' Hin. apply in_app_or in Hin. destruct Hin as [Hin|[E|[]]]; [exact (Hacc k c' Hin)|].
  injection E as <- <-. split; [exact Hvc|exact (IH _ _ _ _ _ _ Hc)].
Qed.

Definition ti_variants_valid (vs : list (str * tvar)) : Prop :=
  forall k v, In (k, v) vs -> tvalidate (F"treeinfo.Variant") (tv_ctx None v) = Ok tt /\ tv_valid None v.

Theorem deser_ti_valid t x :
  deser_ti t = Ok x ->
  tvalidate (F"treeinfo.Release") (ti_release x) = Ok tt /\
  (truthy (getf (ti_release x) (F"is_layered")) = true -> tvalidate (F"treeinfo.BaseProduct") (ti_base_product x) = Ok tt) /\
  tvalidate (F"treeinfo.Tree") (ti_tree x) = Ok tt /\
  ti_variants_valid (ti_variants x) /\
  tvalidate (F"treeinfo.Variants") [(F"_children", PList (map (tv_child_entry true) (sort_keys (ti_variants x))))] = Ok tt /\
  tvalidate (F"treeinfo.Checksums") [(F"_checksum_paths", PList (map (fun c => PStr (fst c)) (ti_checksums x)))] = Ok tt /\
  tvalidate (F"treeinfo.Images") (images_ctx x) = Ok tt /\
  tvalidate (F"treeinfo.Stage2") (ti_stage2 x) = Ok tt /\
  tvalidate (F"treeinfo.Media") (ti_media x) = Ok tt.
Proof.
  intros H. destruct (deser_ti_inv t x H) as (vt & lay & arch & _ & G2 & G3 & G4 & G5 & G6 & _ & Gim & _ & Gs2 & G9).
  unfold r_release in G2. inv_bind G2 as rname Gn. inv_bind G2 as rver Gv. inv_bind G2 as rshort Gs. inv_bind G2 as lay' Gl.
  inv_bind G2 as [] Grel. injection G2 as <- <-. split; [exact Grel|]. split.
  { intros Hl. destruct lay'; [|discriminate Hl]. unfold r_base in G3. inv_bind G3 as n Gbn. inv_bind G3 as v Gbv. inv_bind G3 as s Gbs.
    inv_bind G3 as [] Gb. injection G3 as <-. exact Gb. }
  unfold r_tree in G4. inv_bind G4 as a Ga. inv_bind G4 as pl Gp. inv_bind G4 as ts Gts. inv_bind G4 as [] Gtree. injection G4 as _ <-.
  split; [exact Gtree|].
  unfold r_variants in G5. inv_bind G5 as vids Gvids. inv_bind G5 as vs Gvs. inv_bind G5 as [] Gcont. injection G5 as <-. split.
  { revert Gvs. apply (fold_bind_inv ti_variants_valid); [|intros ? ? []].
    intros vs0 vid vs' Hacc Hs.
    inv_bind Hs as v Hv. inv_bind Hs as [] Hvv. cbv zeta in Hs. destruct (assoc _ vs0); [discriminate|]. injection Hs as <-.
    intros k v' Hin. apply in_app_or in Hin. destruct Hin as [Hin|[E|[]]]; [exact (Hacc k v' Hin)|].
    injection E as <- <-. split; [exact Hvv|exact (deser_tvar_valid _ _ _ _ _ _ _ Hv)]. }
  split; [exact Gcont|]. unfold r_checksums in G6. inv_bind G6 as cks Gk. inv_bind G6 as [] Gck. injection G6 as <-.
  split; [exact Gck|]. split; [exact Gim|]. split; [exact Gs2|].
  unfold r_media in G9. inv_bind G9 as md Gm. inv_bind G9 as [] Gmd. injection G9 as <-. exact Gmd.
Qed.
