(* declarative semantics [mt] of the regex fragment, which the backtracking matcher [m] agrees with on acceptance (m_spec);
   languages of expressions ([denotes]), which LangProofs and LangProofs2 compose *)
From PM Require Import Base.Regex.
Open Scope nat_scope.

(* [mt r pos u rest]: r matches exactly the prefix u of (u ++ rest), starting at index pos *)
Inductive mt : re -> nat -> str -> str -> Prop :=
| mt_eps pos rest : mt Eps pos [] rest
| mt_cls cs x pos rest : cs_mem x cs = true -> mt (Cls cs) pos [x] rest
| mt_cat a b pos u1 u2 rest :
    mt a pos u1 (u2 ++ rest) -> mt b (pos + length u1) u2 rest -> mt (Cat a b) pos (u1 ++ u2) rest
| mt_altl a b pos u rest : mt a pos u rest -> mt (Alt a b) pos u rest
| mt_altr a b pos u rest : mt b pos u rest -> mt (Alt a b) pos u rest
| mt_star0 a pos rest : mt (Star a) pos [] rest
| mt_star1 a pos u1 u2 rest :
    u1 <> [] -> mt a pos u1 (u2 ++ rest) -> mt (Star a) (pos + length u1) u2 rest ->
    mt (Star a) pos (u1 ++ u2) rest
| mt_bol rest : mt Bol 0 [] rest
| mt_eol pos rest : rest = [] \/ rest = [10%N] -> mt Eol pos [] rest
| mt_grp n a pos u rest : mt a pos u rest -> mt (Grp n a) pos u rest.

Lemma mt_eps_iff pos u rest : mt Eps pos u rest <-> u = [].
Proof. split; [intros H; inversion H; auto|intros ->; constructor]. Qed.

Lemma mt_cls_iff c pos u rest : mt (Cls c) pos u rest <-> exists x, u = [x] /\ cs_mem x c = true.
Proof. split; [intros H; inversion H; eauto|intros (x & -> & H); constructor; exact H]. Qed.

Lemma mt_cat_iff a b pos u rest : mt (Cat a b) pos u rest <->
  exists u1 u2, u = u1 ++ u2 /\ mt a pos u1 (u2 ++ rest) /\ mt b (pos + length u1) u2 rest.
Proof. split; [intros H; inversion H; eauto 6|intros (u1 & u2 & -> & H1 & H2); constructor; assumption]. Qed.

Lemma mt_alt_iff a b pos u rest : mt (Alt a b) pos u rest <-> mt a pos u rest \/ mt b pos u rest.
Proof. split; [intros H; inversion H; auto|intros [H|H]; [apply mt_altl|apply mt_altr]; exact H]. Qed.

Lemma mt_star_iff a pos u rest : mt (Star a) pos u rest <->
  u = [] \/ exists u1 u2, u1 <> [] /\ u = u1 ++ u2 /\ mt a pos u1 (u2 ++ rest) /\ mt (Star a) (pos + length u1) u2 rest.
Proof.
  split; [intros H; inversion H; [left; reflexivity|right; eauto 8]|].
  intros [->|(u1 & u2 & Hne & -> & H1 & H2)]; [constructor|apply mt_star1; assumption].
Qed.

Lemma mt_grp_iff n a pos u rest : mt (Grp n a) pos u rest <-> mt a pos u rest.
Proof. split; [intros H; inversion H; assumption|apply mt_grp]. Qed.

Lemma mt_eol_iff pos u rest : mt Eol pos u rest <-> u = [] /\ (rest = [] \/ rest = [c_nl]).
Proof. split; [intros H; inversion H; auto|intros [-> H]; constructor; exact H]. Qed.

Lemma mt_bol_iff pos u rest : mt Bol pos u rest <-> u = [] /\ pos = 0.
Proof. split; [intros H; inversion H; auto|intros [-> ->]; constructor]. Qed.

(* whether [m r s pos c k] succeeds does not depend on the captures c as long as that is so for the continuation k;
   [K] says where k succeeds *)
Definition accepts_iff (k : kont) (K : str -> nat -> Prop) : Prop := forall s p c, k s p c <> None <-> K s p.

Definition then_ (P : nat -> str -> str -> Prop) (K : str -> nat -> Prop) (s : str) (pos : nat) : Prop :=
  exists u rest, s = u ++ rest /\ P pos u rest /\ K rest (pos + length u).

(* the forms that consume nothing and test something *)
Lemma then_test (P : nat -> str -> str -> Prop) (G : str -> Prop) K s pos :
  (forall u rest, P pos u rest <-> u = [] /\ G rest) -> (then_ P K s pos <-> G s /\ K s pos).
Proof.
  intros HP. split.
  - intros (u & rest & -> & H & HK). apply HP in H. destruct H as [-> HG]. rewrite Nat.add_0_r in HK. auto.
  - intros [HG HK]. exists [], s. rewrite Nat.add_0_r. repeat split; [apply HP; auto|exact HK].
Qed.

Lemma or_none (o1 o2 : option caps) :
  match o1 with Some r => Some r | None => o2 end <> None <-> o1 <> None \/ o2 <> None.
Proof. destruct o1; [split; [left|]; discriminate|tauto]. Qed.

Lemma star_m_spec body a :
  (forall k K, accepts_iff k K -> forall s p c, body s p c k <> None <-> then_ (mt a) K s p) ->
  forall k K, accepts_iff k K ->
  forall fuel s pos c, length s < fuel -> (star_m body fuel s pos c k <> None <-> then_ (mt (Star a)) K s pos).
Proof.
  intros Hb k K Hk fuel. induction fuel as [|f IH]; intros s pos c Hf; [lia|]. cbn [star_m]. rewrite or_none, (Hk s pos c).
  (* the continuation of the body is the loop itself, entered only after progress *)
  rewrite (Hb _ (fun s' p' => length s' < length s /\ then_ (mt (Star a)) K s' p')).
  2:{ intros s' p' c'. destruct (Nat.ltb_spec (length s') (length s)); [rewrite IH by lia; tauto|]. split; [congruence|lia]. }
  split.
  - intros [(u1 & rest1 & -> & H1 & Hl & u2 & rest & -> & H2 & H)|H].
    + exists (u1 ++ u2), rest. rewrite app_assoc, app_length, Nat.add_assoc. repeat split; [|exact H].
      apply mt_star1; [intros ->; cbn in Hl; lia|exact H1|exact H2].
    + exists [], s. rewrite Nat.add_0_r. repeat split; [constructor|exact H].
  - intros (u & rest & -> & Hm & H). apply mt_star_iff in Hm. destruct Hm as [->|(u1 & u2 & Hne & -> & H1 & H2)].
    + right. rewrite Nat.add_0_r in H. exact H.
    + left. exists u1, (u2 ++ rest). rewrite <- app_assoc.
      repeat split; [exact H1|rewrite !app_length; destruct u1; [congruence|cbn; lia]|].
      exists u2, rest. rewrite app_length, Nat.add_assoc in H. auto.
Qed.

Theorem m_spec r : forall k K, accepts_iff k K -> forall s pos c, m r s pos c k <> None <-> then_ (mt r) K s pos.
Proof.
  induction r as [|cs|a IHa b IHb|a IHa b IHb|a IHa| | |n a IHa|]; intros k K Hk s pos c; cbn [m].
  - rewrite (then_test _ (fun _ => True) K s pos), (Hk s pos c) by (intros u rest; rewrite mt_eps_iff; tauto). tauto.
  - split.
    + destruct s as [|x s']; [congruence|]. destruct (cs_mem x cs) eqn:E; [|congruence]. intros H. apply Hk in H.
      exists [x], s'. cbn [length]. rewrite Nat.add_1_r. repeat split; [constructor; exact E|exact H].
    + intros (u & rest & -> & Hm & H). apply mt_cls_iff in Hm. destruct Hm as (x & -> & E). cbn [app]. rewrite E.
      cbn [length] in H. rewrite Nat.add_1_r in H. apply Hk, H.
  - rewrite (IHa _ _ (IHb k K Hk) s pos c). split.
    + intros (u1 & rest1 & -> & H1 & u2 & rest & -> & H2 & H).
      exists (u1 ++ u2), rest. rewrite app_assoc, app_length, Nat.add_assoc. repeat split; [constructor; assumption|exact H].
    + intros (u & rest & -> & Hm & H). apply mt_cat_iff in Hm. destruct Hm as (u1 & u2 & -> & H1 & H2).
      exists u1, (u2 ++ rest). rewrite <- app_assoc. repeat split; [exact H1|].
      exists u2, rest. rewrite app_length, Nat.add_assoc in H. auto.
  - rewrite or_none, (IHa k K Hk s pos c), (IHb k K Hk s pos c). split.
    + intros [(u & rest & E & Hm & H)|(u & rest & E & Hm & H)]; exists u, rest; auto using mt_altl, mt_altr.
    + intros (u & rest & E & Hm & H). apply mt_alt_iff in Hm. destruct Hm; [left|right]; exists u, rest; auto.
  - apply (star_m_spec (m a) a IHa k K Hk). lia.
  - rewrite (then_test _ _ K s pos (mt_bol_iff pos)).
    destruct (Nat.eqb_spec pos 0); [rewrite (Hk s pos c); tauto|split; [congruence|tauto]].
  - rewrite (then_test _ _ K s pos (mt_eol_iff pos)).
    destruct s as [|x [|y s]]; [|destruct (N.eqb_spec x 10) as [->|Hx]|]; rewrite ?(Hk _ pos c).
    + split; [auto|tauto].
    + split; [intros H; split; [right; reflexivity|exact H]|tauto].
    + split; [congruence|]. intros [[H|H] _]; [discriminate|]. injection H as ->. destruct (Hx eq_refl).
    + split; [congruence|]. intros [[H|H] _]; discriminate.
  - rewrite (IHa (fun s' p' c' => k s' p' (cap_set n (pos, p') c')) K (fun s' p' c' => Hk s' p' _) s pos c).
    unfold then_. setoid_rewrite mt_grp_iff. reflexivity.
  - split; [congruence|]. intros (u & rest & _ & Hm & _). inversion Hm.
Qed.

Theorem re_matches_iff r s :
  re_matches r s = true <-> exists u rest, s = u ++ rest /\ mt r 0 u rest.
Proof.
  unfold re_matches, re_match.
  assert (Hk : accepts_iff (fun _ _ c => Some c) (fun _ _ => True)) by (intros ? ? ?; split; [auto|discriminate]).
  pose proof (m_spec r _ _ Hk s 0 []) as H.
  unfold then_ in H. destruct (m r s 0 [] _).
  - split; [intros _|reflexivity]. destruct H as [(u & rest & ? & ? & _) _]; [discriminate|eauto].
  - split; [discriminate|]. intros (u & rest & ? & ?). destruct H as [_ []]; eauto.
Qed.

Lemma cs_range n a b x : cs_mem x (CS n [(a, b)]) = xorb n ((a <=? x) && (x <=? b))%N.
Proof. cbn [cs_mem in_ranges existsb fst snd]. rewrite orb_false_r. reflexivity. Qed.

Lemma range_single c x : ((c <=? x) && (x <=? c))%N = N.eqb x c.
Proof. destruct (N.leb_spec c x), (N.leb_spec x c), (N.eqb_spec x c); try reflexivity; lia. Qed.

Lemma cs_single c x : cs_mem x (CS false [(c, c)]) = N.eqb x c.
Proof. rewrite cs_range, range_single. apply xorb_false_l. Qed.

Lemma any_but_nl_spec x : cs_mem x any_but_nl = negb (N.eqb x c_nl).
Proof. unfold any_but_nl. rewrite cs_range, range_single. reflexivity. Qed.

(* LangProofs.cs_dig and the class of ComposeIdProofs.dg are convertible to digit_cs *)
Lemma digit_cs_spec x : cs_mem x digit_cs = is_digit x.
Proof. unfold digit_cs. rewrite cs_range. apply xorb_false_l. Qed.

(* [denotes_eol] is for an expression that ends in `$`, which also matches in front of a final newline *)
Definition denotes (r : re) (L : str -> Prop) : Prop := forall pos u rest, mt r pos u rest <-> L u.
Definition denotes_eol (r : re) (L : str -> Prop) : Prop :=
  forall pos u rest, mt r pos u rest <-> L u /\ (rest = [] \/ rest = [c_nl]).

Definition lcat (L1 L2 : str -> Prop) (u : str) : Prop := exists u1 u2, u = u1 ++ u2 /\ L1 u1 /\ L2 u2.
Definition lchar (p : chr -> bool) (u : str) : Prop := exists x, u = [x] /\ p x = true.
Definition lall (p : chr -> bool) (u : str) : Prop := forallb p u = true.

Lemma lcat_char p L u : lcat (lchar p) L u <-> exists x t, u = x :: t /\ p x = true /\ L t.
Proof.
  split; [intros (u1 & t & -> & (x & -> & Hx) & Ht); exists x, t; auto|].
  intros (x & t & -> & Hx & Ht). exists [x], t. repeat split; [exists x|]; auto.
Qed.

Section Denotes.
  Variables (c : cset) (p : chr -> bool).
  Hypothesis Hp : forall x, cs_mem x c = p x.

  Lemma den_cls : denotes (Cls c) (lchar p).
  Proof. intros pos u rest. rewrite mt_cls_iff. unfold lchar. setoid_rewrite Hp. reflexivity. Qed.

  Lemma den_star_cls : denotes (Star (Cls c)) (lall p).
  Proof.
    intros pos u rest. unfold lall. split.
    - intros H. remember (Star (Cls c)) as r eqn:Hr. induction H; try discriminate; injection Hr as ->; [reflexivity|].
      apply den_cls in H0. destruct H0 as (x & -> & Hx). cbn [app forallb]. rewrite Hx. apply IHmt2. reflexivity.
    - revert pos. induction u as [|x u IH]; intros pos H; [constructor|]. cbn [forallb] in H. apply andb_true_iff in H.
      apply (mt_star1 _ pos [x] u); [discriminate|apply den_cls; exists x; tauto|apply IH; tauto].
  Qed.
End Denotes.

Lemma den_cat a b La Lb : denotes a La -> denotes b Lb -> denotes (Cat a b) (lcat La Lb).
Proof. unfold denotes, lcat. intros Ha Hb pos u rest. rewrite mt_cat_iff. setoid_rewrite Ha. setoid_rewrite Hb. reflexivity. Qed.

Lemma den_alt a b La Lb : denotes a La -> denotes b Lb -> denotes (Alt a b) (fun u => La u \/ Lb u).
Proof. intros Ha Hb pos u rest. rewrite mt_alt_iff, (Ha pos u rest), (Hb pos u rest). reflexivity. Qed.

Lemma den_grp n a L : denotes a L -> denotes (Grp n a) L.
Proof. intros Ha pos u rest. rewrite mt_grp_iff. apply Ha. Qed.

Lemma den_ext r L L' : denotes r L -> (forall u, L u <-> L' u) -> denotes r L'.
Proof. intros Hr HL pos u rest. rewrite <- (HL u). apply Hr. Qed.

Lemma den_end r L : denotes r L -> denotes_eol (Cat r Eol) L.
Proof.
  unfold denotes. intros Hr pos u rest. rewrite mt_cat_iff. setoid_rewrite mt_eol_iff. setoid_rewrite Hr. split.
  - intros (u1 & u2 & -> & H & -> & E). rewrite app_nil_r. auto.
  - intros [H E]. exists u, []. rewrite app_nil_r. auto.
Qed.

Lemma den_cat_eol a b La Lb : denotes a La -> denotes_eol b Lb -> denotes_eol (Cat a b) (lcat La Lb).
Proof.
  unfold denotes, denotes_eol, lcat. intros Ha Hb pos u rest. rewrite mt_cat_iff. setoid_rewrite Ha. setoid_rewrite Hb.
  split; [intros (u1 & u2 & ? & ? & ? & ?)|intros [(u1 & u2 & ? & ? & ?) ?]]; eauto 8.
Qed.

Theorem anchored_lang t L L' s :
  denotes_eol t L -> (forall u, L u <-> L' u) ->
  (re_matches (Cat Bol t) s = true <-> exists body, (s = body \/ s = body ++ [c_nl]) /\ L' body).
Proof.
  intros Ht HL. rewrite re_matches_iff. setoid_rewrite <- HL. split.
  - intros (u & rest & -> & H). apply mt_cat_iff in H. destruct H as (u0 & u1 & -> & H0 & H).
    apply mt_bol_iff in H0. destruct H0 as [-> _]. apply Ht in H. destruct H as [H E].
    exists u1. split; [|exact H]. destruct E as [->| ->]; [left; apply app_nil_r|right; reflexivity].
  - intros (body & Hs & H).
    assert (Hm : forall rest, rest = [] \/ rest = [c_nl] -> mt (Cat Bol t) 0 ([] ++ body) rest)
      by (intros rest E; constructor; [constructor|apply Ht; auto]).
    destruct Hs as [->| ->]; [exists body, []; rewrite app_nil_r|exists body, [c_nl]]; auto.
Qed.
