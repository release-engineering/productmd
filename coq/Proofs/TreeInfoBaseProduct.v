(* C04: the base product of a layered release is read back; a release that is not layered has none *)
From PM Require Import Base.PyVal Base.Obj Base.Ini Model.Common Model.TreeInfo Proofs.Monad Proofs.IniLemmas
  Proofs.TreeInfoWriter Proofs.TreeInfoReadBack.

Lemma base_product_written x mv t : ser_ti x mv = Ok t -> truthy (getf (ti_release x) (F"is_layered")) = true ->
  exists n v s, getf (ti_base_product x) (F"name") = PStr n /\ getf (ti_base_product x) (F"version") = PStr v /\
                getf (ti_base_product x) (F"short") = PStr s /\
                ini_get t (F"base_product") (F"name") = Ok n /\ ini_get t (F"base_product") (F"version") = Ok v /\
                ini_get t (F"base_product") (F"short") = Ok s.
Proof.
  intros H Hlay. destruct (ser_ti_section x mv t (F"base_product") _ H eq_refl) as (p & p' & G & _ & E).
  rewrite !(ini_get_ext _ _ _ _ E). unfold stage, w_base in G. rewrite Hlay in G. inv_bind G as u Gu. inv_bind G as q Gq.
  destruct (sets_get _ _ _ _ G eq_refl) as [S _].
  destruct (S (F"name") _ eq_refl) as (n & Hn & Gn). destruct (S (F"version") _ eq_refl) as (v & Hv & Gv).
  destruct (S (F"short") _ eq_refl) as (s & Hs & Gs). exists n, v, s. auto 10.
Qed.

Theorem base_product_read_back x mv t x' :
  ser_ti x mv = Ok t -> deser_ti t = Ok x' ->
  if truthy (getf (ti_release x) (F"is_layered"))
  then getf (ti_base_product x') (F"name") = getf (ti_base_product x) (F"name") /\
       getf (ti_base_product x') (F"version") = getf (ti_base_product x) (F"version") /\
       getf (ti_base_product x') (F"short") = getf (ti_base_product x) (F"short")
  else ti_base_product x' = [(F"name", PNone); (F"short", PNone); (F"version", PNone)].
Proof.
  intros Hw Hr. destruct (reader_on_written x mv t x' Hw Hr) as (_ & G & _). cbv zeta in G. unfold r_base in G.
  destruct (truthy (getf (ti_release x) (F"is_layered"))) eqn:Elay; [|injection G as <-; reflexivity].
  destruct (base_product_written x mv t Hw Elay) as (n & v & s & Hn & Hv & Hs & Bn & Bv & Bs).
  rewrite Bn, Bv, Bs in G. cbn [bind] in G. inv_bind G as u Gu. injection G as <-. rewrite Hn, Hv, Hs. repeat split; reflexivity.
Qed.

Definition ex_ti_layered : ti :=
  {| ti_release := [(F"name", PStr (F"Spacewalk")); (F"short", PStr (F"SW")); (F"version", PStr (F"2.1")); (F"is_layered", PBool true)];
     ti_base_product := [(F"name", PStr (F"Red Hat Enterprise Linux")); (F"short", PStr (F"RHEL")); (F"version", PStr (F"7"))];
     ti_tree := ti_tree ex_ti; ti_variants := ti_variants ex_ti; ti_checksums := []; ti_images := [];
     ti_stage2 := ti_stage2 ex_ti; ti_media := ti_media ex_ti |}.

Example base_product_nonvacuous :
  exists t x', ser_ti ex_ti_layered None = Ok t /\ deser_ti t = Ok x' /\ truthy (getf (ti_release ex_ti_layered) (F"is_layered")) = true /\
    getf (ti_base_product x') (F"short") = PStr (F"RHEL").
Proof. eexists. eexists. split; [vm_compute; reflexivity|]. split; [vm_compute; reflexivity|]. split; vm_compute; reflexivity. Qed.
