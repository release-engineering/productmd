(* C04: the image tables of a written .treeinfo are read back: per platform exactly the written (name, path) entries, and no
   platform the writer did not write *)
From PM Require Import Base.PyVal Base.Obj Base.Ini Model.Common Model.TreeInfo Proofs.Monad Proofs.ListLemmas Proofs.KeyedSort
  Proofs.AssocLemmas Proofs.IniLemmas Proofs.TreeInfoWriter Proofs.TreeInfoReadBack.
From Coq Require Import Permutation.

Definition IM (s : str) : Prop := startswith s (lit "images-") = true.
Definition isec (pi : str * list (str * pyval)) : str := lit "images-" ++ fst pi.

Definition unstr (kv : str * pyval) : str * str := (fst kv, match snd kv with PStr s => s | _ => [] end).

Lemma unstr_pstr xs : map unstr (map pstr_snd xs) = xs.
Proof. rewrite map_map. rewrite <- (map_id xs) at 2. apply map_ext. intros []. reflexivity. Qed.

(* the body of w_images' loop *)
Definition images_step (acc : result ini) (pi : str * list (str * pyval)) : result ini :=
  do q <- acc; let sec := lit "images-" ++ fst pi in do q1 <- add_section q sec; sets q1 sec (snd pi).

Definition written_secs (ims : list (str * list (str * pyval))) : ini := map (fun pi => (isec pi, map unstr (snd pi))) ims.

Lemma images_fold_spec ims : forall q q',
  fold_left images_step ims (Ok q) = Ok q' -> (forall pi, In pi ims -> NoDup (map fst (snd pi))) ->
  q' = q ++ written_secs ims /\ forall pi, In pi ims -> snd pi = map pstr_snd (map unstr (snd pi)).
Proof.
  induction ims as [|pi ims IH]; intros q q' H Hin.
  - injection H as <-. split; [symmetry; apply app_nil_r|intros pi []].
  - apply fold_bind_cons in H. destruct H as (q2 & E & H). cbv zeta in E. inv_bind E as q1 Ga.
    destruct (sets_strs _ _ _ _ E) as (xs & Exs). pose proof (Hin pi (or_introl eq_refl)) as Hnd. rewrite Exs in E, Hnd.
    rewrite map_map in Hnd. destruct (section_written _ _ _ _ _ Ga E Hnd) as [_ ->].
    assert (Eu : map unstr (snd pi) = xs) by (rewrite Exs; apply unstr_pstr).
    destruct (IH _ _ H (fun pj Hj => Hin pj (or_intror Hj))) as [-> I2]. rewrite <- app_assoc. cbn [written_secs map app]. rewrite Eu.
    split; [reflexivity|]. intros pj [<-|Hj]; [rewrite Eu; exact Exs|exact (I2 pj Hj)].
Qed.

Section fold_key.
  Context {A V : Type} (key : A -> option str) (val : A -> V).
  Definition kstep (acc : list (str * V)) (a : A) := match key a with Some k => assoc_set k (val a) acc | None => acc end.

  (* a key ends up with the value of some item filed under it, or, if no item has that key, as it was *)
  Lemma kfold_spec l : forall acc k,
    (forall a, In a l -> key a <> Some k) /\ assoc k (fold_left kstep l acc) = assoc k acc \/
    exists a, In a l /\ key a = Some k /\ assoc k (fold_left kstep l acc) = Some (val a).
  Proof.
    induction l as [|a l IH]; intros acc k; cbn [fold_left]; [left; split; [intros a []|reflexivity]|].
    destruct (IH (kstep acc a) k) as [[Hno E]|(a' & Hin & Hk & E)]; [|right; exists a'; split; [right; exact Hin|auto]].
    assert (Hother : key a <> Some k -> forall a', In a' (a :: l) -> key a' <> Some k) by (intros Hne a' [<-|Hin]; [exact Hne|exact (Hno a' Hin)]).
    rewrite E. unfold kstep. destruct (key a) as [k'|] eqn:Ek; [|left; split; [apply Hother; discriminate|reflexivity]].
    destruct (str_eq_dec k' k) as [->|Hne].
    - right. exists a. rewrite assoc_set_same. split; [left; reflexivity|auto].
    - left. rewrite assoc_set_other by exact Hne. split; [apply Hother; congruence|reflexivity].
  Qed.
End fold_key.

Definition img_key (arch : str) (sec : str * list (str * str)) : option str :=
  if startswith (fst sec) (lit "images-") then
    let plat0 := skipn 7 (fst sec) in
    let sfx := c_dash :: arch in
    Some (if negb (str_eqb plat0 arch) && endswith plat0 sfx then drop_last (length sfx) plat0 else plat0)
  else None.
Definition img_val (sec : str * list (str * str)) : list (str * pyval) := map pstr_snd (sort_opts (snd sec)).

Lemma r_images_fold arch t : r_images arch t = fold_left (kstep (img_key arch) img_val) (sort_secs t) [].
Proof.
  unfold r_images. generalize (@nil (str * list (str * pyval))). induction (sort_secs t) as [|a l IH]; intros acc; [reflexivity|].
  cbn [fold_left]. rewrite IH. f_equal. unfold kstep, img_key. destruct (startswith (fst a) (lit "images-")); reflexivity.
Qed.

Lemma img_key_IM arch sec k : img_key arch sec = Some k -> IM (fst sec).
Proof. unfold img_key, IM. destruct (startswith _ _); [reflexivity|discriminate]. Qed.

Lemma img_key_isec arch pj opts :
  (fst pj = arch \/ endswith (fst pj) (c_dash :: arch) = false) -> img_key arch (isec pj, opts) = Some (fst pj).
Proof.
  intros H. unfold img_key, isec. cbn [fst]. rewrite startswith_app. cbv zeta.
  change (skipn 7 (lit "images-" ++ fst pj)) with (fst pj).
  destruct H as [ -> | -> ]; [rewrite str_eqb_refl; reflexivity|rewrite andb_false_r; reflexivity].
Qed.

Theorem images_read_back x mv t x' :
  ser_ti x mv = Ok t -> deser_ti t = Ok x' -> NoDup (map fst (ti_images x)) ->
  (forall pi, In pi (ti_images x) -> NoDup (map fst (snd pi))) ->
  (forall a, getf (ti_tree x') (F"arch") = PStr a ->
     forall pi, In pi (ti_images x) -> fst pi = a \/ endswith (fst pi) (c_dash :: a) = false) ->
  (forall pi, In pi (ti_images x) ->
     exists tab, assoc (fst pi) (ti_images x') = Some tab /\ forall n v, In (n, v) tab <-> In (n, v) (snd pi)) /\
  (forall k, ~ In k (map fst (ti_images x)) -> assoc k (ti_images x') = None).
Proof.
  intros Hw Hr Hnd Hims Harch.
  destruct (deser_ti_images t x' Hr) as (arch & Gtree & ->).
  pose proof (Harch arch (r_tree_arch _ _ _ Gtree)) as Hsfx. clear Harch Gtree Hr. rewrite r_images_fold, sort_secs_eq.
  destruct (ser_ti_frame x mv t Hw) as [Nt Fr]. destruct (Fr KImages) as (p & p' & G & Hfr).
  set (ims := ti_images x) in *. set (secs := written_secs ims).
  assert (W : p' = p ++ secs /\ forall pi, In pi ims -> snd pi = map pstr_snd (map unstr (snd pi))).
  { apply images_fold_spec; [|exact Hims]. unfold stage, w_images in G. fold ims in G. destruct ims; [exact G|].
    inv_bind G as u Gu. exact G. }
  destruct W as [-> Hstr].
  assert (Hsecs : forall s, IM s -> assoc s t = assoc s secs).
  { intros s Hs. destruct (Hfr s (images_kind s Hs)) as [A ->]. rewrite assoc_app, A. reflexivity. }
  (* a section the reader's loop takes up is the section of a written platform, and is filed under that platform *)
  assert (Hkeys : forall sec k, In sec (sort_by fst false t) -> img_key arch sec = Some k ->
            exists pj, In pj ims /\ sec = (isec pj, map unstr (snd pj)) /\ k = fst pj).
  { intros [name opts] k Ha Hk. apply sort_by_In in Ha. apply (assoc_in_nodup _ _ _ Nt) in Ha.
    rewrite (Hsecs name (img_key_IM _ _ _ Hk)) in Ha. apply assoc_In, in_map_iff in Ha. destruct Ha as (pj & Ej & Hj).
    injection Ej as <- <-. rewrite (img_key_isec arch pj _ (Hsfx pj Hj)) in Hk. injection Hk as <-. eauto. }
  split.
  - intros pi Hpi.
    destruct (kfold_spec (img_key arch) img_val (sort_by fst false t) [] (fst pi)) as [[Hno _]|(sec & Ha & Hk & ->)].
    + (* its section is in the table, with whatever options *)
      exfalso. destruct (assoc (isec pi) t) as [opts|] eqn:Et.
      * apply (Hno (isec pi, opts)); [apply sort_by_In, assoc_In; exact Et|exact (img_key_isec arch pi _ (Hsfx pi Hpi))].
      * rewrite (Hsecs (isec pi) (startswith_app _ _)) in Et. apply assoc_None in Et. apply Et. unfold keys, secs, written_secs.
        rewrite map_map. exact (in_map isec _ _ Hpi).
    + destruct (Hkeys sec _ Ha Hk) as (pj & Hj & -> & Ek). rewrite <- (nodup_map_inj fst _ pi pj Hnd Hpi Hj Ek).
      eexists. split; [reflexivity|]. intros n v. unfold img_val. cbn [snd]. rewrite sort_opts_eq. rewrite (Hstr pi Hpi) at 2.
      split; apply Permutation_in, Permutation_map; [|symmetry]; apply (sort_by_is_perm fst false).
  - intros k Hk. destruct (kfold_spec (img_key arch) img_val (sort_by fst false t) [] k) as [[_ ->]|(sec & Ha & Hkey & _)]; [reflexivity|].
    destruct (Hkeys sec k Ha Hkey) as (pj & Hj & _ & ->). exfalso. exact (Hk (in_map fst _ _ Hj)).
Qed.

Definition ex_ti_images : ti :=
  {| ti_release := ti_release ex_ti; ti_base_product := ti_base_product ex_ti; ti_tree := ti_tree ex_ti; ti_variants := ti_variants ex_ti;
     ti_checksums := [];
     ti_images := [(F"x86_64", [(F"kernel", PStr (F"images/pxeboot/vmlinuz")); (F"boot.iso", PStr (F"images/boot.iso"))]);
                   (F"xen", [(F"kernel", PStr (F"images/pxeboot/vmlinuz-xen"))])];
     ti_stage2 := ti_stage2 ex_ti; ti_media := ti_media ex_ti |}.

Example images_read_back_nonvacuous :
  exists t x', ser_ti ex_ti_images None = Ok t /\ deser_ti t = Ok x' /\ NoDup (map fst (ti_images ex_ti_images)) /\
    (forall pi, In pi (ti_images ex_ti_images) -> NoDup (map fst (snd pi))) /\
    getf (ti_tree x') (F"arch") = PStr (F"x86_64") /\
    (forall pi, In pi (ti_images ex_ti_images) -> fst pi = F"x86_64" \/ endswith (fst pi) (c_dash :: F"x86_64") = false) /\
    assoc (F"xen") (ti_images x') = Some [(F"kernel", PStr (F"images/pxeboot/vmlinuz-xen"))].
Proof.
  eexists. eexists. split; [vm_compute; reflexivity|]. split; [vm_compute; reflexivity|].
  split; [apply distinct_nodup; reflexivity|].
  split; [intros pi [<-|[<-|[]]]; apply distinct_nodup; reflexivity|].
  split; [vm_compute; reflexivity|]. split; [|vm_compute; reflexivity].
  intros pi [<-|[<-|[]]]; [left; reflexivity|right; vm_compute; reflexivity].
Qed.
