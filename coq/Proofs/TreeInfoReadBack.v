(* C04 (reader on the writer's table): the reader cut into the same stages as the writer; whatever it returns for a table the
   writer produced carries the written release and tree facts *)
From PM Require Import Base.PyVal Base.Obj Base.Ini Model.Common Model.TreeInfo Proofs.Monad Proofs.IniLemmas
  Proofs.TreeInfoWriter Gen.Tables.

Lemma has_option_ext t t' s o : ini_get t' s o = ini_get t s o -> has_option t' s o = has_option t s o.
Proof. intros H. rewrite !has_option_ini, H. reflexivity. Qed.

Lemma header_written x mv t : ser_ti x mv = Ok t ->
  ini_get t (F"header") (F"version") = Ok (show_version VERSION) /\ ini_get t (F"header") (F"type") = Ok ti_mtype.
Proof.
  intros H. destruct (ser_ti_section x mv t (F"header") _ H eq_refl) as (p & p' & G & _ & E).
  rewrite !(ini_get_ext _ _ _ _ E). inv_bind G as u Gu. inv_bind G as p0 G0. destruct (sets_get _ _ _ _ G eq_refl) as [S _].
  destruct (S (F"version") _ eq_refl) as (v & Hv & Gv). destruct (S (F"type") _ eq_refl) as (ty & Hty & Gty).
  injection Hv as <-. injection Hty as <-. split; assumption.
Qed.

Lemma release_written x mv t : ser_ti x mv = Ok t ->
  exists n v s,
    getf (ti_release x) (F"name") = PStr n /\ getf (ti_release x) (F"version") = PStr v /\ getf (ti_release x) (F"short") = PStr s /\
    ini_get t (F"release") (F"name") = Ok n /\ ini_get t (F"release") (F"version") = Ok v /\ ini_get t (F"release") (F"short") = Ok s /\
    (if truthy (getf (ti_release x) (F"is_layered")) then ini_get t (F"release") (F"is_layered") = Ok (F"true")
     else has_option t (F"release") (F"is_layered") = false).
Proof.
  intros H. destruct (ser_ti_section x mv t (F"release") _ H eq_refl) as (p & p' & G & _ & E).
  rewrite (has_option_ext p' t _ _ (ini_get_ext _ _ _ _ E)), !(ini_get_ext _ _ _ _ E).
  inv_bind G as u Gu. inv_bind G as p2 G2. inv_bind G as p3 G3. destruct (sets_get _ _ _ _ G3 eq_refl) as [S S'].
  destruct (S (F"name") _ eq_refl) as (n & Hn & Gn). destruct (S (F"version") _ eq_refl) as (v & Hv & Gv).
  destruct (S (F"short") _ eq_refl) as (s & Hs & Gs). exists n, v, s.
  destruct (truthy (getf (ti_release x) (F"is_layered"))).
  - pose proof (fun o N => ini_set_get_other _ _ _ _ _ (F"release") o G (or_intror N)) as K.
    rewrite <- K in Gn, Gv, Gs by discriminate. pose proof (ini_set_get_same _ _ _ _ _ G). auto 10.
  - injection G as <-. rewrite has_option_ini, (S' (F"is_layered") eq_refl), (add_section_fresh _ _ _ _ G2). auto 10.
Qed.

Lemma tree_written x mv t : ser_ti x mv = Ok t ->
  exists a ts_s,
    getf (ti_tree x) (F"arch") = PStr a /\ py_str_num (getf (ti_tree x) (F"build_timestamp")) = Ok ts_s /\
    ini_get t (F"tree") (F"arch") = Ok a /\ ini_get t (F"tree") (F"platforms") = Ok (platforms_str (ti_tree x)) /\
    ini_get t (F"tree") (F"build_timestamp") = Ok ts_s /\
    ini_get t (F"tree") (F"variants") =
      Ok (join_strs [c_comma] (sort_list (map (fun kv => getf (tv_fields (snd kv)) (F"uid")) (ti_variants x)))).
Proof.
  intros H. destruct (ser_ti_section x mv t (F"tree") _ H eq_refl) as (p & p' & G & _ & E).
  rewrite !(ini_get_ext _ _ _ _ E).
  inv_bind G as u Gu. inv_bind G as p6 G6. inv_bind G as ts_s Gts. inv_bind G as p7 G7. inv_bind G as u' Gv.
  destruct (sets_get _ _ _ _ G7 eq_refl) as [S _].
  destruct (S (F"arch") _ eq_refl) as (a & Ha & Ga). destruct (S (F"platforms") _ eq_refl) as (pl & Hpl & Gpl).
  destruct (S (F"build_timestamp") _ eq_refl) as (ts' & Hts & Gbt). injection Hpl as <-. injection Hts as <-.
  pose proof (fun o N => ini_set_get_other _ _ _ _ _ (F"tree") o G (or_intror N)) as K.
  rewrite <- K in Ga, Gpl, Gbt by discriminate. pose proof (ini_set_get_same _ _ _ _ _ G). exists a, ts_s. auto 10.
Qed.

(* the reader, cut where the writer is: the r_* repeat deser_ti's text slice by slice, deser_ti_stages is the only tie *)
Definition r_header (t : ini) : result (N * N) :=
  do vt <- (if has_option t (F"header") (F"version") then
              do v <- ini_get t (F"header") (F"version");
              do vt <- version_tuple (F"treeinfo.Header") (PStr v);
              check (if vt_leb (1, 1) vt then do ty <- ini_get t (F"header") (F"type"); guard (str_eqb ty ti_mtype) ValueError else Ok tt);
              Ok vt
            else Ok (0, 0)%N);
  check guard (negb (vt_eqb vt (0, 0))) OtherError;
  Ok vt.

Definition r_release (vt : N * N) (t : ini) : result (obj * bool) :=
  let rsec := if vt_leb vt (0, 3) then F"product" else F"release" in
  do rname <- ini_get t rsec (F"name");
  do rver <- ini_get t rsec (F"version");
  do rshort <- (if vt_leb vt (0, 3) then ini_get t rsec (F"short")
                else if has_option t rsec (F"short") then ini_get t rsec (F"short") else Ok rname);
  do lay <- (if has_option t rsec (F"is_layered") then do s <- ini_get t rsec (F"is_layered"); ini_getboolean s else Ok false);
  let rel := [(F"name", PStr rname); (F"short", PStr rshort); (F"version", PStr rver); (F"is_layered", PBool lay)] in
  check tvalidate (F"treeinfo.Release") rel;
  Ok (rel, lay).

Definition r_base (lay : bool) (t : ini) : result obj :=
  if lay then
    do n <- ini_get t (F"base_product") (F"name");
    do v <- ini_get t (F"base_product") (F"version");
    do s <- ini_get t (F"base_product") (F"short");
    let b := [(F"name", PStr n); (F"short", PStr s); (F"version", PStr v)] in
    check tvalidate (F"treeinfo.BaseProduct") b; Ok b
  else Ok [(F"name", PNone); (F"short", PNone); (F"version", PNone)].

Definition r_tree (t : ini) : result (str * obj) :=
  let tsec := if has_section t (F"tree") then F"tree" else F"general" in
  do arch <- ini_get t tsec (F"arch");
  do plats <- ini_get t tsec (F"platforms");
  do ts <- (if str_eqb tsec (F"tree") then do s <- ini_get t (F"tree") (F"build_timestamp"); float_text_to_int s else Ok (PInt (-1)));
  let tree := [(F"arch", PStr arch); (F"build_timestamp", ts); (F"platforms", PList (sort_set (map PStr (split_nonempty plats))))] in
  check tvalidate (F"treeinfo.Tree") tree;
  Ok (arch, tree).

Definition r_variants (src03 : bool) (t : ini) : result (list (str * tvar)) :=
  do vids <- (if has_option t (F"tree") (F"variants") then do s <- ini_get t (F"tree") (F"variants"); Ok (split c_comma s) else Ok []);
  do variants <-
    fold_left (fun acc vid =>
      do vs <- acc;
      do v <- deser_tvar (S (length t)) src03 t None vid false;
      check tvalidate (F"treeinfo.Variant") (tv_ctx None v);
      let key := fmt_s (getf (tv_fields v) (F"uid")) in
      match assoc key vs with Some _ => Err ValueError | None => Ok (vs ++ [(key, v)]) end) vids (Ok []);
  check tvalidate (F"treeinfo.Variants") [(F"_children", PList (map (tv_child_entry true) (sort_keys variants)))];
  Ok variants.

Definition r_checksums (t : ini) : result (list (str * (pyval * pyval))) :=
  do checksums <-
    match assoc (F"checksums") t with
    | Some opts => fold_left (fun acc kv => do cs <- acc; do tc <- typed_checksum (snd kv); Ok (assoc_set (fst kv) tc cs)) (sort_opts opts) (Ok [])
    | None => Ok []
    end;
  check tvalidate (F"treeinfo.Checksums") [(F"_checksum_paths", PList (map (fun c => PStr (fst c)) checksums))];
  Ok checksums.

Definition r_images (arch : str) (t : ini) : list (str * list (str * pyval)) :=
  fold_left (fun acc sec =>
    if startswith (fst sec) (lit "images-") then
      let plat0 := skipn 7 (fst sec) in
      let sfx := c_dash :: arch in
      let plat := if negb (str_eqb plat0 arch) && endswith plat0 sfx then drop_last (length sfx) plat0 else plat0 in
      assoc_set plat (map (fun kv => (fst kv, PStr (snd kv))) (sort_opts (snd sec))) acc
    else acc) (sort_secs t) [].

Definition r_stage2 (t : ini) : obj :=
  [(F"mainimage", opt_get t (F"stage2") (F"mainimage")); (F"instimage", opt_get t (F"stage2") (F"instimage"))].

Definition r_media (t : ini) : result obj :=
  do md <- (if has_section t (F"media") then
              do a <- ini_get t (F"media") (F"discnum"); do a' <- py_int (PStr a);
              do b <- ini_get t (F"media") (F"totaldiscs"); do b' <- py_int (PStr b);
              Ok [(F"discnum", a'); (F"totaldiscs", b')]
            else Ok [(F"discnum", PNone); (F"totaldiscs", PNone)]);
  check tvalidate (F"treeinfo.Media") md;
  Ok md.

Lemma deser_ti_stages t : deser_ti t =
  do vt <- r_header t;
  do rl <- r_release vt t;
  do bp <- r_base (snd rl) t;
  do ar <- r_tree t;
  do variants <- r_variants (vt_leb vt (0, 3) && str_eqb (fst ar) (F"src")) t;
  do checksums <- r_checksums t;
  let x0 := {| ti_release := fst rl; ti_base_product := bp; ti_tree := snd ar; ti_variants := variants; ti_checksums := checksums;
               ti_images := r_images (fst ar) t; ti_stage2 := []; ti_media := [] |} in
  check tvalidate (F"treeinfo.Images") (images_ctx x0);
  check tvalidate (F"treeinfo.Stage2") (r_stage2 t);
  do md <- r_media t;
  check tvalidate (F"treeinfo.TreeInfo") [];
  Ok {| ti_release := fst rl; ti_base_product := bp; ti_tree := snd ar; ti_variants := variants; ti_checksums := checksums;
        ti_images := r_images (fst ar) t; ti_stage2 := r_stage2 t; ti_media := md |}.
Proof.
  unfold deser_ti, r_header, r_release, r_base, r_tree, r_variants, r_checksums, r_images, r_stage2, r_media. cbv zeta.
  repeat first [apply bind_ext; intros ? | apply bind_ext_assoc; intros ? | progress cbn [bind fst snd]]. reflexivity.
Qed.

Lemma deser_ti_inv t x' : deser_ti t = Ok x' ->
  exists vt lay arch,
    r_header t = Ok vt /\ r_release vt t = Ok (ti_release x', lay) /\ r_base lay t = Ok (ti_base_product x') /\
    r_tree t = Ok (arch, ti_tree x') /\ r_variants (vt_leb vt (0, 3) && str_eqb arch (F"src")) t = Ok (ti_variants x') /\
    r_checksums t = Ok (ti_checksums x') /\
    ti_images x' = r_images arch t /\ tvalidate (F"treeinfo.Images") (images_ctx x') = Ok tt /\
    ti_stage2 x' = r_stage2 t /\ tvalidate (F"treeinfo.Stage2") (ti_stage2 x') = Ok tt /\ r_media t = Ok (ti_media x').
Proof.
  rewrite deser_ti_stages. intros H.
  inv_bind H as vt G1. inv_bind H as [rel lay] G2. inv_bind H as bp G3. inv_bind H as [arch tree] G4. inv_bind H as vs G5.
  inv_bind H as cks G6. cbv zeta in H. inv_bind H as [] G7. inv_bind H as [] G8. inv_bind H as md G9. inv_bind H as u G10.
  injection H as <-. exists vt, lay, arch. cbn [fst snd] in *. auto 12.
Qed.

Lemma deser_ti_checksums t x' : deser_ti t = Ok x' -> r_checksums t = Ok (ti_checksums x').
Proof. intros H. destruct (deser_ti_inv t x' H) as (_ & _ & _ & _ & _ & _ & _ & _ & G & _). exact G. Qed.

Lemma deser_ti_images t x' : deser_ti t = Ok x' -> exists arch, r_tree t = Ok (arch, ti_tree x') /\ ti_images x' = r_images arch t.
Proof. intros H. destruct (deser_ti_inv t x' H) as (_ & _ & arch & _ & _ & _ & Gt & _ & _ & Gi & _). eauto. Qed.

Lemma deser_ti_stage2 t x' : deser_ti t = Ok x' -> ti_stage2 x' = r_stage2 t.
Proof. intros H. destruct (deser_ti_inv t x' H) as (_ & _ & _ & _ & _ & _ & _ & _ & _ & _ & _ & G & _). exact G. Qed.

Lemma deser_ti_media t x' : deser_ti t = Ok x' -> r_media t = Ok (ti_media x').
Proof. intros H. destruct (deser_ti_inv t x' H) as (_ & _ & _ & _ & _ & _ & _ & _ & _ & _ & _ & _ & _ & G). exact G. Qed.

Lemma treeinfo_version_ok : version_tuple (F"treeinfo.Header") current_version = Ok VERSION.
Proof. vm_compute. reflexivity. Qed.

Lemma read_header x mv t : ser_ti x mv = Ok t -> r_header t = Ok VERSION.
Proof.
  intros H. destruct (header_written x mv t H) as [Hv Hty]. unfold r_header.
  rewrite (ini_get_has_option _ _ _ _ Hv), Hv. cbn [bind]. change (PStr (show_version VERSION)) with current_version.
  rewrite treeinfo_version_ok. cbn [bind]. change (vt_leb (1, 1) VERSION) with true. cbv iota. rewrite Hty. cbn [bind].
  rewrite str_eqb_refl. reflexivity.
Qed.

(* the header read is the current one, so the reader takes the release from [release], not [product] *)
Lemma reader_on_written x mv t x' : ser_ti x mv = Ok t -> deser_ti t = Ok x' ->
  let lay := truthy (getf (ti_release x) (F"is_layered")) in
  ti_release x' = [(F"name", getf (ti_release x) (F"name")); (F"short", getf (ti_release x) (F"short"));
                   (F"version", getf (ti_release x) (F"version")); (F"is_layered", PBool lay)] /\
  r_base lay t = Ok (ti_base_product x') /\
  exists arch, r_tree t = Ok (arch, ti_tree x') /\ r_variants false t = Ok (ti_variants x').
Proof.
  intros Hw Hr. destruct (deser_ti_inv t x' Hr) as (vt & lay & arch & G1 & G2 & G3 & G4 & G5 & _).
  rewrite (read_header x mv t Hw) in G1. injection G1 as <-.
  destruct (release_written x mv t Hw) as (n & v & s & En & Ev & Es & Gn & Gv & Gs & Hl).
  unfold r_release in G2. change (vt_leb VERSION (0, 3)) with false in G2. cbv iota zeta in G2.
  rewrite Gn, Gv, (ini_get_has_option _ _ _ _ Gs), Gs in G2. cbn [bind] in G2. cbv zeta. rewrite En, Ev, Es.
  destruct (truthy (getf (ti_release x) (F"is_layered"))).
  - rewrite (ini_get_has_option _ _ _ _ Hl), Hl in G2. cbn [bind] in G2. change (ini_getboolean (F"true")) with (Ok true) in G2.
    cbn [bind] in G2. inv_bind G2 as u Gu. injection G2 as <- <-. eauto.
  - rewrite Hl in G2. cbn [bind] in G2. inv_bind G2 as u Gu. injection G2 as <- <-. eauto.
Qed.

Theorem release_and_tree_read_back x mv t x' :
  ser_ti x mv = Ok t -> deser_ti t = Ok x' ->
  getf (ti_release x') (F"name") = getf (ti_release x) (F"name") /\
  getf (ti_release x') (F"short") = getf (ti_release x) (F"short") /\
  getf (ti_release x') (F"version") = getf (ti_release x) (F"version") /\
  getf (ti_release x') (F"is_layered") = PBool (truthy (getf (ti_release x) (F"is_layered"))) /\
  getf (ti_tree x') (F"arch") = getf (ti_tree x) (F"arch") /\
  getf (ti_tree x') (F"platforms") = PList (sort_set (map PStr (split_nonempty (platforms_str (ti_tree x))))) /\
  exists ts_s, py_str_num (getf (ti_tree x) (F"build_timestamp")) = Ok ts_s /\
               float_text_to_int ts_s = Ok (getf (ti_tree x') (F"build_timestamp")).
Proof.
  intros Hw Hr. destruct (reader_on_written x mv t x' Hw Hr) as (Erel & _ & arch & G & _).
  destruct (tree_written x mv t Hw) as (a & ts_s & Ea & Ets & Ga & Gp & Gt & _).
  unfold r_tree in G. rewrite (ini_get_has_section _ _ _ _ Ga) in G. cbv iota zeta in G. rewrite Ga, Gp, str_eqb_refl, Gt in G.
  cbn [bind] in G. inv_bind G as ts' Gts'. inv_bind G as u Gu. injection G as <- <-. rewrite Erel, Ea.
  repeat split; try reflexivity. exists ts_s. split; assumption.
Qed.

Lemma r_tree_arch t arch tree : r_tree t = Ok (arch, tree) -> getf tree (F"arch") = PStr arch.
Proof.
  unfold r_tree. intros H. inv_bind H as a Ga. inv_bind H as pl Gp. inv_bind H as ts Gts. inv_bind H as u Gu. injection H as <- <-. reflexivity.
Qed.
