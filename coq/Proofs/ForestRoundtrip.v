(* C01: reading back the flat uid-keyed mapping the writer produced gives the forest that was written, at any depth, with its
   path tables as written (wp); the normal form assumed has the executable test forest_normalb of Model/CiNormalB.v *)
From PM Require Import Model.ComposeInfo Model.CiNormalB Proofs.ListLemmas Proofs.AssocLemmas Proofs.PyValProofs Proofs.LoadValid Proofs.KeySort
  Proofs.ReleaseRoundtrip Proofs.PathsRoundtrip Proofs.VariantsProofs Proofs.ForestFlat Gen.Tables.
From Coq Require Import Lia Permutation.

Fixpoint tree_all (P : vtree -> Prop) (t : vtree) : Prop :=
  match t with
  | VT f paths rel children =>
      P t /\ (fix all (cs : list (str * vtree)) : Prop :=
                match cs with [] => True | (_, c) :: cs' => tree_all P c /\ all cs' end) children
  end.

Definition forest_all (P : vtree -> Prop) (cs : list (str * vtree)) : Prop := forall k c, In (k, c) cs -> tree_all P c.

Lemma tree_all_unfold P f paths rel children :
  tree_all P (VT f paths rel children) <-> P (VT f paths rel children) /\ forest_all P children.
Proof. apply and_iff_compat_l, (fix_all_iff (tree_all P)). Qed.

Lemma tree_all_root P t : tree_all P t -> P t.
Proof. destruct t. cbn [tree_all]. intros [H _]. exact H. Qed.

Lemma forest_all_incl P l l' : incl l' l -> forest_all P l -> forest_all P l'.
Proof. intros Hi H k c Hin. exact (H k c (Hi _ Hin)). Qed.

Lemma tree_valid_root parent t : tree_valid parent t -> validate_tree_node parent t = Ok tt.
Proof. destruct t. intros H. apply tree_valid_unfold in H. apply H. Qed.

Definition rel_ok (t : vtree) : Prop :=
  is_layered_variant t = true ->
  exists j, ser_release release_cls (F"release") (setf (vt_release t) (F"is_layered") (PBool true)) = Ok (F"release", j).

Lemma ser_children_rel_ok l : forall me data d, ser_children me l data = Ok d -> forest_all rel_ok l.
Proof.
  induction l as [|k f paths rel cs l IHcs IHl] using forest_ind; intros me data d H; [intros ? ? []|].
  apply ser_children_cons in H. destruct H as (d' & H1 & H). destruct (ser_variant_inv _ _ _ _ H1) as (Hr & d1 & Hc & _).
  intros k' c' [E|Hin]; [injection E as <- <-|exact (IHl _ _ _ H k' c' Hin)].
  apply tree_all_unfold. split; [exact Hr|exact (IHcs _ _ _ Hc)].
Qed.

Lemma ser_variants_rel_ok vs j : ser_variants vs = Ok j -> forest_all rel_ok (sort_keys vs).
Proof. intros H. destruct (ser_variants_inv _ _ H) as (_ & d & _ & Hc). exact (ser_children_rel_ok _ _ _ _ Hc). Qed.

Lemma rel_part_shape t : rel_part t = [] \/ exists j, rel_part t = [(F"release", j)].
Proof.
  unfold rel_part. destruct (is_layered_variant t); [|auto]. destruct (ser_release _ _ _) as [r|e] eqn:E; [|auto].
  destruct (ser_release_inv _ _ _ _ E) as [_ ->]. eauto.
Qed.

(* the normal form of a node is the shape the reader itself builds *)
Definition mk_fields (i : str) (u : str) (n ty : pyval) (a : list pyval) : obj :=
  [(F"id", PStr i); (F"uid", PStr u); (F"name", n); (F"type", ty); (F"arches", PList a)].

Definition strs (l : list pyval) : list str := match strs_of l with Some a => a | None => [] end.

Definition node_normal (t : vtree) : Prop :=
  (exists i u n ty a archs, vt_fields t = mk_fields i u n ty a /\ sort_set a = a /\ strs_of a = Some archs) /\
  (if is_layered_variant t
   then exists name version short rty internal, vt_release t = mk_release name version short rty true internal
   else vt_release t = fresh_release) /\
  Forall (fun kc => getf (vt_fields (snd kc)) (F"id") = PStr (fst kc)) (vt_children t) /\
  ssorted (map fst (vt_children t)).

Definition keyed_by_id (cs : list (str * vtree)) : Prop := Forall (fun kc => getf (vt_fields (snd kc)) (F"id") = PStr (fst kc)) cs.

Lemma normal_release t : node_normal t ->
  if is_layered_variant t
  then exists name version short rty internal, vt_release t = mk_release name version short rty true internal
  else vt_release t = fresh_release.
Proof. intros H. apply H. Qed.

Lemma normal_keyed t : node_normal t -> keyed_by_id (vt_children t).
Proof. intros H. apply H. Qed.

Lemma normal_sorted t : node_normal t -> ssorted (map fst (vt_children t)).
Proof. intros H. apply H. Qed.

Lemma normal_fields_facts t : node_normal t ->
  let f := vt_fields t in
  [(F"id", getf f (F"id")); (F"uid", getf f (F"uid")); (F"name", getf f (F"name")); (F"type", getf f (F"type"));
   (F"arches", PList (arches_of f))] = f /\
  getf f (F"uid") = PStr (uid_s t) /\ getf f (F"arches") = PList (arches_of f) /\
  sort_set (arches_of f) = arches_of f /\ strs_of (sort_set (arches_of f)) = Some (strs (arches_of f)).
Proof.
  intros ((i & u & n & ty & a & archs & Hf & Hsa & Hstrs) & _). unfold uid_s. cbv zeta. rewrite Hf.
  change (arches_of (mk_fields i u n ty a)) with a. unfold strs. rewrite Hsa, Hstrs. repeat split; reflexivity.
Qed.

Lemma normal_fields t : node_normal t ->
  [(F"id", getf (vt_fields t) (F"id")); (F"uid", getf (vt_fields t) (F"uid")); (F"name", getf (vt_fields t) (F"name"));
   (F"type", getf (vt_fields t) (F"type")); (F"arches", PList (arches_of (vt_fields t)))] = vt_fields t.
Proof. intros H. apply (normal_fields_facts t H). Qed.

Lemma normal_uid t : node_normal t -> getf (vt_fields t) (F"uid") = PStr (uid_s t).
Proof. intros H. apply (normal_fields_facts t H). Qed.

Lemma normal_arches t : node_normal t ->
  getf (vt_fields t) (F"arches") = PList (arches_of (vt_fields t)) /\ sort_set (arches_of (vt_fields t)) = arches_of (vt_fields t).
Proof. intros H. split; apply (normal_fields_facts t H). Qed.

Lemma normal_strs t : node_normal t -> strs_of (sort_set (arches_of (vt_fields t))) = Some (strs (arches_of (vt_fields t))).
Proof. intros H. apply (normal_fields_facts t H). Qed.

Lemma normal_child_id t k c : node_normal t -> In (k, c) (vt_children t) -> getf (vt_fields c) (F"id") = PStr k.
Proof. intros H Hin. pose proof (normal_keyed t H) as Hk. unfold keyed_by_id in Hk. rewrite Forall_forall in Hk. exact (Hk _ Hin). Qed.

Lemma normal_child_ids t : node_normal t -> child_ids t = map PStr (map fst (vt_children t)).
Proof.
  intros H. unfold child_ids. rewrite <- (sort_set_sorted _ (normal_sorted t H)), map_map. f_equal.
  apply map_ext_in. intros [k c] Hin. exact (normal_child_id t k c H Hin).
Qed.

(* what is read back: the tree with every path table as it is written *)
Fixpoint wp (t : vtree) : vtree :=
  match t with
  | VT f paths rel cs => VT f (ser_paths_tab (strs (arches_of f)) paths) rel (map (fun kc => (fst kc, wp (snd kc))) cs)
  end.
Definition wp_list (cs : list (str * vtree)) : list (str * vtree) := map (fun kc => (fst kc, wp (snd kc))) cs.

Lemma wp_eq t : wp t = VT (vt_fields t) (ser_paths_tab (strs (arches_of (vt_fields t))) (vt_paths t)) (vt_release t) (wp_list (vt_children t)).
Proof. destruct t; reflexivity. Qed.

Lemma wp_fields t : vt_fields (wp t) = vt_fields t.
Proof. destruct t; reflexivity. Qed.

Lemma child_entries_wp top cs : map (child_ctx_entry top) (sort_keys (wp_list cs)) = map (child_ctx_entry top) (sort_keys cs).
Proof.
  unfold wp_list. rewrite (sort_keys_map wp cs), map_map. apply map_ext. intros [k c]. unfold child_ctx_entry. cbn [fst snd].
  rewrite wp_fields. reflexivity.
Qed.

Lemma validate_tree_node_wp parent t : validate_tree_node parent (wp t) = validate_tree_node parent t.
Proof. unfold validate_tree_node, tree_ctx. rewrite wp_eq. cbn [vt_fields vt_children]. rewrite child_entries_wp. reflexivity. Qed.

Lemma dump_of_read t : exists D, dump_of t = PDict D /\
  assoc (F"id") D = Some (getf (vt_fields t) (F"id")) /\ assoc (F"uid") D = Some (getf (vt_fields t) (F"uid")) /\
  assoc (F"name") D = Some (getf (vt_fields t) (F"name")) /\ assoc (F"type") D = Some (getf (vt_fields t) (F"type")) /\
  assoc (F"arches") D = Some (PList (sort_set (arches_of (vt_fields t)))) /\
  assoc (F"release") D = assoc (F"release") (rel_part t) /\
  assoc (F"paths") D = Some (ser_paths (arches_of (vt_fields t)) (vt_paths t)) /\
  assoc (F"variants") D = match vt_children t with [] => None | _ => Some (PList (child_ids t)) end.
Proof.
  unfold dump_of. eexists. split; [reflexivity|].
  do 5 (split; [reflexivity|]).
  destruct (rel_part_shape t) as [->|(j & ->)]; destruct (vt_children t); repeat split; reflexivity.
Qed.

Lemma dump_of_uid_variants t : exists D, dump_of t = PDict D /\ assoc (F"uid") D = Some (getf (vt_fields t) (F"uid")) /\
  assoc (F"variants") D = match vt_children t with [] => None | _ => Some (PList (child_ids t)) end.
Proof. destruct (dump_of_read t) as (D & ED & _ & A2 & _ & _ & _ & _ & _ & A8). eauto. Qed.

Lemma read_release t D :
  node_normal t -> rel_ok t -> assoc (F"release") D = assoc (F"release") (rel_part t) ->
  (if is_layered_variant t then deser_release VERSION (PDict D) else Ok fresh_release) = Ok (vt_release t).
Proof.
  intros Hn Hok HD. pose proof (normal_release t Hn) as Hform. unfold rel_part in HD. destruct (is_layered_variant t) eqn:El; [|rewrite Hform; reflexivity].
  destruct Hform as (name & version & short & rty & internal & Hform). destruct (Hok El) as (j & Hj).
  rewrite Hj in HD. rewrite Hform in Hj |- *.
  apply (release_roundtrip name version short rty true internal _ j D Hj). cbn [dget]. rewrite HD. reflexivity.
Qed.

Lemma version_not_legacy : vt_ltb VERSION (1, 0) = false.
Proof. vm_compute. reflexivity. Qed.

Definition covered (all : list (str * pyval)) (t : vtree) : Prop := assoc (uid_s t) all = Some (dump_of t).

(* the loop body deser_variant runs over the child keys and deser_variants over the top-level keys (p = None) *)
Definition read_child fuel all (p : option (pyval * pyval)) (acc : result (list (str * vtree))) (ck : str) :=
  do cs <- acc;
  do c <- deser_variant fuel VERSION all p ck;
  check validate_tree_node p c;
  do ckey <- match getf (vt_fields c) (F"id") with PStr s => Ok s | _ => Err TypeError end;
  match assoc ckey cs with
  | Some _ => Err ValueError
  | None => Ok (cs ++ [(ckey, c)])
  end.

Lemma read_children fuel all p : forall (cs done : list (str * vtree)),
  (forall k c, In (k, c) cs ->
     deser_variant fuel VERSION all p (uid_s c) = Ok (wp c) /\ validate_tree_node p c = Ok tt /\
     getf (vt_fields c) (F"id") = PStr k) ->
  NoDup (map fst done ++ map fst cs) ->
  fold_left (read_child fuel all p) (map (fun kc => uid_s (snd kc)) cs) (Ok done) = Ok (done ++ wp_list cs).
Proof.
  induction cs as [|[k c] cs IH]; intros done Hc Hn; [cbn; rewrite app_nil_r; reflexivity|].
  cbn [map fst snd fold_left]. destruct (Hc k c (or_introl eq_refl)) as (Hd & Hv & Hi).
  unfold read_child at 2. cbn [bind]. rewrite Hd. cbn [bind]. rewrite validate_tree_node_wp, Hv. cbn [bind]. rewrite wp_fields, Hi. cbn [bind].
  assert (Hnone : assoc k done = None).
  { apply assoc_None. intros Hin. apply (NoDup_remove_2 _ _ _ Hn), in_or_app. left. exact Hin. }
  rewrite Hnone.
  rewrite (IH (done ++ [(k, wp c)])).
  - rewrite <- app_assoc. reflexivity.
  - intros k' c' Hin. apply Hc. right. exact Hin.
  - rewrite map_app, <- app_assoc. exact Hn.
Qed.

Lemma read_child_keys D u (ks : list str) legacy :
  ssorted ks -> assoc (F"variants") D = match ks with [] => None | _ => Some (PList (map PStr ks)) end ->
  match assoc (F"variants") D with
  | Some vs => do l <- py_list vs; Ok (map (fun i => fmt_s (PStr u) ++ c_dash :: fmt_s i) (sort_list l))
  | None => if vt_ltb VERSION (1, 0) then legacy else Ok []
  end = Ok (map (fun k => u ++ c_dash :: k) ks).
Proof.
  intros Hs ->. destruct ks; [rewrite version_not_legacy; reflexivity|]. cbn [py_list bind].
  rewrite (sort_list_sorted _ Hs), map_map. reflexivity.
Qed.

(* one level of the reader, given that its loop over the children rebuilds them *)
Lemma deser_variant_node all t fuel parent :
  node_normal t -> rel_ok t -> covered all t -> validate_tree_node parent t = Ok tt ->
  fold_left (read_child fuel all (as_parent t)) (map (fun k => uid_s t ++ c_dash :: k) (map fst (vt_children t))) (Ok []) =
    Ok (wp_list (vt_children t)) ->
  deser_variant (S fuel) VERSION all parent (uid_s t) = Ok (wp t).
Proof.
  intros Hn Hr Hcov Hv Hloop. destruct (dump_of_read t) as (D & ED & A1 & A2 & A3 & A4 & A5 & A6 & A7 & A8).
  pose proof (read_release t D Hn Hr A6) as Hrel. unfold is_layered_variant in Hrel.
  pose proof (normal_uid t Hn) as Hu. destruct (normal_arches t Hn) as (Ha & Hsa). unfold covered in Hcov. rewrite ED in Hcov.
  assert (A8' : assoc (F"variants") D = match map fst (vt_children t) with [] => None | _ => Some (PList (map PStr (map fst (vt_children t)))) end).
  { rewrite A8, (normal_child_ids t Hn). destruct (vt_children t); reflexivity. }
  cbn [deser_variant]. rewrite Hcov. cbn [of_option bind dget]. rewrite A1, A2, A3, A4, A5. cbn [of_option bind py_list].
  rewrite Hrel, A7. cbn [of_option bind]. rewrite !Hsa, (paths_roundtrip _ _ _ (normal_strs t Hn)), (normal_fields t Hn), <- Ha, Hu. cbn [bind].
  rewrite (read_child_keys D (uid_s t) _ _ (normal_sorted t Hn) A8'). cbn [bind]. rewrite <- Hu. fold (as_parent t).
  unfold read_child in Hloop. rewrite Hloop. cbn [bind]. rewrite <- wp_eq, validate_tree_node_wp, Hv. reflexivity.
Qed.

Lemma child_uid t k c :
  node_normal t -> node_normal c -> getf (vt_fields c) (F"id") = PStr k -> validate_tree_node (as_parent t) c = Ok tt ->
  uid_s c = uid_s t ++ c_dash :: k.
Proof.
  intros Ht Hc Hid Hv. unfold validate_tree_node, tree_ctx, as_parent in Hv.
  apply validated_under_parent in Hv; [|rewrite <- (normal_fields c Hc); reflexivity..].
  destruct Hv as [Huc _]. unfold uid_s at 1. rewrite Huc, (normal_uid t Ht), Hid. reflexivity.
Qed.

Definition aligned_node (t : vtree) : Prop := forall k c, In (k, c) (vt_children t) -> uid_s c = uid_s t ++ c_dash :: k.

Lemma tree_aligned t : forall parent, tree_all node_normal t -> tree_valid parent t -> tree_all aligned_node t.
Proof.
  induction t as [f paths rel cs IH] using vtree_ind2. intros parent Hn Hv.
  apply tree_all_unfold in Hn. destruct Hn as [Hn Hnc]. apply tree_valid_unfold in Hv. destruct Hv as [_ Hvc].
  apply tree_all_unfold. split.
  - intros k c Hin. exact (child_uid _ k c Hn (tree_all_root _ _ (Hnc k c Hin)) (normal_child_id _ k c Hn Hin) (tree_valid_root _ _ (Hvc k c Hin))).
  - intros k c Hin. exact (IH k c Hin _ (Hnc k c Hin) (Hvc k c Hin)).
Qed.

Lemma flat_child_le k c cs : In (k, c) cs -> (length (flat c) <= length (flat_list cs))%nat.
Proof.
  induction cs as [|[k0 c0] cs IH]; intros []; unfold flat_list; cbn [flat_map snd]; rewrite app_length.
  - injection H as <- <-. lia.
  - fold (flat_list cs). pose proof (IH H). lia.
Qed.

Lemma ssorted_app_r a b : ssorted (a ++ b) -> ssorted b.
Proof. induction a as [|x a IH]; cbn [app ssorted]; [auto|]. intros [_ H]. exact (IH H). Qed.

(* Every call on a child spends one unit of fuel, so a subtree needs as much as it has nodes, which is the number of its
   entries.  The entry lists the children's ids; tree_aligned says that <uid>-<id>, where the reader looks for a child, is
   that child's own UID. *)
Theorem deser_variant_spec (all : list (str * pyval)) t : forall fuel parent,
  (length (flat t) <= fuel)%nat ->
  tree_all node_normal t -> tree_all rel_ok t -> tree_all (covered all) t -> tree_valid parent t ->
  deser_variant fuel VERSION all parent (uid_s t) = Ok (wp t).
Proof.
  induction t as [f paths rel cs IH] using vtree_ind2. intros fuel parent Hfuel Hn Hr Hc Hv.
  pose proof (tree_aligned _ _ Hn Hv) as Ha.
  apply tree_all_unfold in Hn, Hr, Hc, Ha. destruct Hn as [Hn Hnc], Hr as [Hr Hrc], Hc as [Hc Hcc], Ha as [Ha _].
  apply tree_valid_unfold in Hv. destruct Hv as [Hv Hvc].
  rewrite flat_unfold, app_length, Nat.add_1_r in Hfuel. destruct fuel as [|fuel]; [lia|].
  apply deser_variant_node; try assumption. cbn [vt_children].
  rewrite map_map, (map_ext_in _ (fun kc => uid_s (snd kc))) by (intros [k c] Hin; symmetry; exact (Ha k c Hin)).
  apply (read_children fuel all _ cs []).
  - intros k c Hin. split; [|split; [exact (tree_valid_root _ _ (Hvc k c Hin))|exact (normal_child_id _ k c Hn Hin)]].
    apply (IH k c Hin); [|exact (Hnc k c Hin)|exact (Hrc k c Hin)|exact (Hcc k c Hin)|exact (Hvc k c Hin)].
    pose proof (flat_child_le k c cs Hin). lia.
  - exact (ssorted_nodup _ (normal_sorted _ Hn)).
Qed.

Lemma covered_incl all t : NoDup (keys all) -> incl (flat t) all -> tree_all (covered all) t.
Proof.
  intros Hn. induction t as [f paths rel cs IH] using vtree_ind2. intros Hi. rewrite flat_unfold in Hi.
  apply incl_app_inv in Hi. destruct Hi as [Hi Hroot]. apply tree_all_unfold. split.
  - apply assoc_in_nodup; [exact Hn|]. apply Hroot. left. reflexivity.
  - intros k c Hin. apply (IH k c Hin). intros x Hx. apply Hi, in_flat_map. exists (k, c). auto.
Qed.

(* the body of the fold in deser_variants that collects the child UIDs *)
Definition cu_step (acc : result (list str)) (kv : str * pyval) : result (list str) :=
  do s <- acc;
  do vs <- dget_default (snd kv) (F"variants") (PList []);
  do l <- py_list vs;
  do u <- dget (snd kv) (F"uid");
  Ok (s ++ map (fun i => fmt_s u ++ c_dash :: fmt_s i) l).

Definition child_uid_list (t : vtree) : list str := map (fun kc => uid_s (snd kc)) (vt_children t).

Lemma cu_step_node t s : node_normal t -> aligned_node t -> cu_step (Ok s) (uid_s t, dump_of t) = Ok (s ++ child_uid_list t).
Proof.
  intros Hn Hal. destruct (dump_of_uid_variants t) as (D & -> & A2 & A8).
  unfold cu_step. cbn [bind snd dget_default dget]. rewrite A2, A8, (normal_uid t Hn), (normal_child_ids t Hn). unfold child_uid_list.
  destruct (vt_children t) as [|c0 cs0] eqn:Ecs; [reflexivity|]. rewrite <- Ecs. cbn [dflt py_list bind of_option].
  rewrite !map_map. do 2 f_equal. apply map_ext_in. intros [k c] Hin. symmetry. exact (Hal k c Hin).
Qed.

Lemma in_uids t x : In x (uids t) <-> In x (forest_uids (vt_children t)) \/ x = uid_s t.
Proof. destruct t as [f p r cs]. rewrite uids_unfold, in_app_iff. cbn. intuition. Qed.

Lemma forest_uids_flat_map l : forest_uids l = flat_map (fun kc => uids (snd kc)) l.
Proof. induction l as [|[k c] l IH]; [reflexivity|]. rewrite forest_uids_cons, IH. reflexivity. Qed.

(* the UIDs below the roots of a forest *)
Definition inner (l : list (str * vtree)) : list str := flat_map (fun kc => forest_uids (vt_children (snd kc))) l.

Lemma in_forest_uids l x : In x (forest_uids l) <-> In x (inner l) \/ In x (map (fun kc => uid_s (snd kc)) l).
Proof.
  induction l as [|[k [f p r cs]] l IH]; [cbn; tauto|].
  rewrite forest_uids_cons, uids_unfold. change (inner ((k, VT f p r cs) :: l)) with (forest_uids cs ++ inner l).
  rewrite !in_app_iff, IH. cbn [In map snd]. tauto.
Qed.

(* over the entries of a forest the collection succeeds, and what it adds are (in some order) the UIDs below the roots:
   those below the first tree's children, then these children, then those below its siblings *)
Lemma cu_fold l : forest_all node_normal l -> forest_all aligned_node l ->
  forall s, exists L, fold_left cu_step (flat_list l) (Ok s) = Ok (s ++ L) /\ forall x, In x L <-> In x (inner l).
Proof.
  induction l as [|k f paths rel cs l IHcs IHl] using forest_ind; intros Hn Ha s.
  - exists []. rewrite app_nil_r. split; reflexivity.
  - pose proof (Hn k _ (or_introl eq_refl)) as Hn0. pose proof (Ha k _ (or_introl eq_refl)) as Ha0.
    apply tree_all_unfold in Hn0, Ha0. destruct Hn0 as [Hn0 Hnc], Ha0 as [Ha0 Hac].
    destruct (IHcs Hnc Hac s) as (L1 & E1 & H1).
    destruct (IHl (fun k' c' H => Hn k' c' (or_intror H)) (fun k' c' H => Ha k' c' (or_intror H))
                  ((s ++ L1) ++ child_uid_list (VT f paths rel cs))) as (L2 & E2 & H2).
    exists (L1 ++ child_uid_list (VT f paths rel cs) ++ L2).
    rewrite flat_list_cons, flat_unfold, !fold_left_app, E1. cbn [fold_left]. rewrite (cu_step_node _ _ Hn0 Ha0), E2, <- !app_assoc.
    split; [reflexivity|]. intros x. change (inner ((k, VT f paths rel cs) :: l)) with (forest_uids cs ++ inner l).
    rewrite !in_app_iff, H1, H2, in_forest_uids. tauto.
Qed.

(* the reader takes for top-level variants the keys that are nobody's child *)
Lemma filter_roots (D : list str) (l : list (str * vtree)) :
  (forall x, In x (inner l) -> mem_str x D = true) ->
  (forall k c, In (k, c) l -> mem_str (uid_s c) D = false) ->
  filter (fun k => negb (mem_str k D)) (forest_uids l) = map (fun kc => uid_s (snd kc)) l.
Proof.
  induction l as [|[k [f p r cs]] l IH]; intros H1 H2; [reflexivity|].
  change (inner ((k, VT f p r cs) :: l)) with (forest_uids cs ++ inner l) in H1.
  rewrite forest_uids_cons, uids_unfold, !filter_app. cbn [map snd filter].
  rewrite filter_none by (intros x Hx; rewrite H1; [reflexivity|apply in_or_app; left; exact Hx]).
  rewrite (H2 _ _ (or_introl eq_refl)). cbn [negb app]. f_equal.
  apply IH; [intros x Hx; apply H1, in_or_app; right; exact Hx|intros k' c' Hin; apply (H2 k' c'); right; exact Hin].
Qed.

Lemma written_roots (l : list (str * vtree)) L :
  NoDup (forest_uids l) -> (forall x, In x L <-> In x (inner l)) ->
  filter (fun k => negb (mem_str k L)) (forest_uids l) = map (fun kc => uid_s (snd kc)) l.
Proof.
  intros Hn Hin. apply filter_roots.
  - intros x Hx. apply mem_str_In, Hin, Hx.
  - (* a root listed as somebody's descendant would occur twice *)
    intros k c H. destruct (mem_str _ _) eqn:E; [|reflexivity]. apply mem_str_In, Hin, in_flat_map in E. destruct E as ([k' c'] & H' & Hx).
    rewrite forest_uids_flat_map in Hn.
    assert (E : (k, c) = (k', c')) by (apply (nodup_flat_map_inj _ _ _ _ (uid_s c) Hn H H'); apply in_uids; auto).
    injection E as <- <-. apply (nodup_flat_map_in _ _ _ Hn) in H. cbn [snd] in H, Hx. destruct c as [f p r cs].
    rewrite uids_unfold in H. destruct (NoDup_remove_2 _ _ _ H). rewrite app_nil_r. exact Hx.
Qed.

(* as the reader builds the top level: keyed by id, but in UID order *)
Definition forest_normal (vs : list (str * vtree)) : Prop :=
  forest_all node_normal vs /\
  Forall (fun kc => getf (vt_fields (snd kc)) (F"id") = PStr (fst kc)) vs /\
  NoDup (map fst vs) /\
  ssorted (map (fun kc => uid_s (snd kc)) vs).

Lemma obj_eqb_eq a b : obj_eqb a b = true -> a = b.
Proof. unfold obj_eqb. intros H. apply pyval_eqb_eq in H. injection H as H. exact H. Qed.

Lemma all_strsb_ok a : all_strsb a = true -> exists archs, strs_of a = Some archs.
Proof.
  induction a as [|v a IH]; cbn [all_strsb forallb strs_of fold_right]; [exists []; reflexivity|].
  intros H. apply andb_true_iff in H. destruct H as [H1 H2]. destruct v; try discriminate.
  destruct (IH H2) as (r & Hr). unfold strs_of in Hr. rewrite Hr. eexists. reflexivity.
Qed.

Lemma keyed_by_idb_ok (l : list (str * vtree)) :
  forallb (fun kc => pyval_eqb (getf (vt_fields (snd kc)) (F"id")) (PStr (fst kc))) l = true -> keyed_by_id l.
Proof. intros H. rewrite forallb_forall in H. apply Forall_forall. intros kc Hin. apply pyval_eqb_eq, H, Hin. Qed.

Lemma node_normalb_ok t : node_normalb t = true -> node_normal t.
Proof.
  unfold node_normalb. cbv zeta.
  intros [[[[[Hlay Hset]%andb_prop Hstrs]%andb_prop Hrel]%andb_prop Hids]%andb_prop Hsorted]%andb_prop.
  split; [|split; [|split; [exact (keyed_by_idb_ok _ Hids)|exact (ssortedb_ok _ Hsorted)]]].
  - apply obj_eqb_eq in Hlay. apply pyval_eqb_eq in Hset. injection Hset as Hset. destruct (all_strsb_ok _ Hstrs) as (archs & Ha).
    do 6 eexists. split; [exact Hlay|]. split; [exact Hset|exact Ha].
  - unfold is_layered_variant. destruct (py_eq _ _); apply obj_eqb_eq in Hrel; [do 5 eexists|]; exact Hrel.
Qed.

Lemma tree_normalb_ok t : tree_normalb t = true -> tree_all node_normal t.
Proof.
  induction t as [f p r cs IH] using vtree_ind2. cbn [tree_normalb]. intros H. apply andb_true_iff in H. destruct H as [H1 H2].
  apply tree_all_unfold. split; [exact (node_normalb_ok _ H1)|]. intros k c Hin.
  exact (IH k c Hin (proj1 (fix_allb_iff tree_normalb cs) H2 k c Hin)).
Qed.

Lemma uid_str_eq t : CiNormalB.uid_str t = uid_s t.
Proof. reflexivity. Qed.

Lemma forest_normalb_ok vs : forest_normalb vs = true -> forest_normal vs.
Proof.
  unfold forest_normalb. intros [[[Htrees Hids]%andb_prop Hnodup]%andb_prop Hsorted]%andb_prop.
  rewrite (map_ext _ _ (fun kc => uid_str_eq (snd kc))) in Hsorted.
  split; [|split; [exact (keyed_by_idb_ok _ Hids)|split; [exact (nodupb_ok _ Hnodup)|exact (ssortedb_ok _ Hsorted)]]].
  intros k c Hin. rewrite forallb_forall in Htrees. exact (tree_normalb_ok c (Htrees (k, c) Hin)).
Qed.

Theorem forest_roundtrip vs d payload :
  forest_normal vs -> NoDup (forest_uids vs) ->
  ser_variants vs = Ok (PDict d) -> dget payload (F"variants") = Ok (PDict d) ->
  deser_variants VERSION payload = Ok (wp_list vs).
Proof.
  intros (Hn & Hids & Hkeys & Huid) Hnd Hser Hget.
  pose proof (sort_keys_is_perm vs) as Hperm. pose proof (ser_variants_rel_ok _ _ Hser) as Hrel.
  assert (Hnd' : NoDup (forest_uids (sort_keys vs))).
  { rewrite forest_uids_flat_map in *. exact (Permutation_NoDup (Permutation_flat_map _ (Permutation_sym Hperm)) Hnd). }
  destruct (ser_variants_written vs d Hser Hnd') as (Ed & Hvalid & _). set (vs' := sort_keys vs) in *.
  assert (Hn' : forest_all node_normal vs') by exact (forest_all_incl _ _ _ (fun x => Permutation_in x Hperm) Hn).
  assert (Hal : forest_all aligned_node vs') by (intros k c H; exact (tree_aligned c None (Hn' k c H) (Hvalid k c H))).
  unfold deser_variants. rewrite Hget. cbn [bind].
  (* the child UIDs, hence the top-level keys, in UID order *)
  change (fold_left _ d (Ok [])) with (fold_left cu_step d (Ok [])). rewrite Ed at 1.
  destruct (cu_fold vs' Hn' Hal []) as (L & -> & HL). cbn [bind app].
  rewrite (filter_ext _ (fun k => negb (mem_str k L))) by (intros k; rewrite version_not_legacy; reflexivity).
  replace (map fst d) with (forest_uids vs') by (subst d; reflexivity). rewrite (written_roots vs' L Hnd' HL).
  rewrite (sort_keys_of_perm _ (map (fun k => (k, tt)) (map (fun kc => uid_s (snd kc)) vs))), map_map, map_id.
  2:{ do 2 apply Permutation_map. exact Hperm. }
  2:{ rewrite map_map, map_id. exact Huid. }
  apply (read_children (S (length d)) d None vs []); [|exact Hkeys]. intros k c H.
  assert (H' : In (k, c) vs') by exact (Permutation_in _ (Permutation_sym Hperm) H).
  rewrite Forall_forall in Hids. split; [|split; [exact (tree_valid_root _ _ (Hvalid k c H'))|exact (Hids _ H)]].
  apply deser_variant_spec; [|exact (Hn' k c H')|exact (Hrel k c H')| |exact (Hvalid k c H')].
  - pose proof (flat_child_le k c vs' H'). rewrite <- Ed in *. lia.
  - apply covered_incl; subst d; [exact Hnd'|]. intros x Hx. apply in_flat_map. exists (k, c). auto.
Qed.
