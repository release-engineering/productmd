(* shared by all formats: the header and compose-section round trips, the latter for sections of the shape compose_normal
   (label None or non-blank, final a bool that is False without a label: what ser_compose keeps) *)
From PM Require Import Base.PyVal Base.Obj Model.Common Proofs.Monad Proofs.PyValProofs Gen.Tables.

Lemma dget_assoc kv k v : assoc k kv = Some v -> dget (PDict kv) k = Ok v.
Proof. intros H. cbn [dget]. rewrite H. reflexivity. Qed.

Definition mk_compose (id ty date respin label final : pyval) : obj :=
  [(F"id", id); (F"type", ty); (F"date", date); (F"respin", respin); (F"label", label); (F"final", final)].

Definition compose_normal (c : obj) : Prop :=
  exists id ty date respin label final,
    c = mk_compose id ty date respin label (PBool final) /\
    (label = PNone \/ truthy label = true) /\ (label = PNone -> final = false).

(* obligations on the regenerated tables; VERSION is past the format changes the readers branch on *)
Lemma current_version_valid : validate (F"common.Header") (header_obj current_version) = Ok tt.
Proof. vm_compute. reflexivity. Qed.

Lemma current_version_tuple : version_tuple (F"common.Header") current_version = Ok VERSION.
Proof. vm_compute. reflexivity. Qed.

Lemma version_ge_1_1 : vt_leb (1, 1) VERSION = true.
Proof. vm_compute. reflexivity. Qed.

Lemma version_gt_0_3 : vt_leb VERSION (0, 3) = false.
Proof. vm_compute. reflexivity. Qed.

Lemma version_gt_1_1 : vt_leb VERSION (1, 1) = false.
Proof. vm_compute. reflexivity. Qed.

Lemma ser_header_ok mtype : ser_header mtype = Ok (PDict [(F"type", PStr mtype); (F"version", current_version)]).
Proof. unfold ser_header. rewrite current_version_valid. reflexivity. Qed.

Lemma deser_header_ser mtype rest :
  deser_header mtype (PDict ((F"header", PDict [(F"type", PStr mtype); (F"version", current_version)]) :: rest)) =
  Ok (current_version, VERSION).
Proof.
  unfold deser_header. erewrite dget_assoc by reflexivity. cbn [bind].
  erewrite dget_assoc by reflexivity. cbn [bind]. rewrite current_version_tuple. cbn [bind]. rewrite version_ge_1_1.
  erewrite dget_assoc by reflexivity. cbn [bind]. rewrite py_eq_refl. cbn [guard bind]. rewrite current_version_valid. reflexivity.
Qed.

Lemma deser_compose_fields vt payload sec id ty date respin label0 final0 :
  vt_ltb vt (0, 3) = false -> dget payload (F"compose") = Ok sec ->
  dget sec (F"id") = Ok id -> dget_default sec (F"label") PNone = Ok label0 -> dget sec (F"type") = Ok ty ->
  dget sec (F"date") = Ok date -> dget sec (F"respin") = Ok respin -> dget_default sec (F"final") (PBool false) = Ok final0 ->
  deser_compose vt payload =
  (let c := mk_compose id ty date respin (or_none label0) (py_bool final0) in check validate compose_cls c; Ok c).
Proof. intros Hvt Hs Hi Hl Ht Hd Hr Hf. unfold deser_compose. rewrite Hs, Hvt. cbn [bind]. rewrite Hi, Hl, Ht, Hd, Hr. cbn [bind]. rewrite Hf. reflexivity. Qed.

Lemma deser_compose_at c j kv :
  assoc (F"compose") kv = Some j -> compose_normal c -> ser_compose c = Ok j -> deser_compose VERSION (PDict kv) = Ok c.
Proof.
  intros Hj (id & ty & date & respin & label & final & -> & Hl & Hf) Hs. unfold ser_compose in Hs.
  inv_bind Hs as u Hv. apply unit_ok in Hv. apply Ok_inj in Hs. subst j. cbv -[truthy] in Hj.
  destruct Hl as [->|Ht]; [rewrite (Hf eq_refl) in *|rewrite Ht in Hj];
    (erewrite deser_compose_fields; [|reflexivity|exact (dget_assoc _ _ _ Hj)|cbv; reflexivity..]);
    cbv zeta; unfold or_none, py_bool; cbn [truthy]; rewrite ?Ht; cbv iota; rewrite Hv; reflexivity.
Qed.

Lemma deser_compose_ser c j rest :
  compose_normal c -> ser_compose c = Ok j ->
  deser_compose VERSION (PDict ((F"compose", j) :: rest)) = Ok c.
Proof. apply deser_compose_at. cbn [assoc]. rewrite str_eqb_refl. reflexivity. Qed.
