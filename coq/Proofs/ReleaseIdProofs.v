(* C14: parse_release_id inverts create_release_id (relid_roundtrip) outside the class K2, where it cannot (relid_ambiguous). *)
From PM Require Import Base.PyVal Model.ReleaseId Proofs.ListLemmas Proofs.StrLemmas Proofs.LangProofs Gen.Tables.
Open Scope nat_scope.

Lemma endswith_refl_len x y : endswith x y = true -> endswith y x = true -> x = y.
Proof.
  intros H1 H2. apply endswith_spec in H1, H2. destruct H1 as [t1 H1], H2 as [t2 H2].
  assert (length x = length t1 + length y) by (rewrite H1, app_length; reflexivity).
  assert (length y = length t2 + length x) by (rewrite H2, app_length; reflexivity).
  destruct t1; [exact H1|cbn in *; lia].
Qed.

Definition last_seg (t : str) : str :=
  match split_last c_dash t with Some (_, b) => b | None => t end.

(* obligations on the regenerated RELEASE_TYPES table *)

Lemma types_last_seg t : In t RELEASE_TYPES -> valid_type (last_seg t) = true.
Proof. revert t. apply forallb_forall. vm_compute. reflexivity. Qed.

Lemma types_no_suffix t t' :
  In t RELEASE_TYPES -> In t' RELEASE_TYPES -> endswith (c_dash :: t) (c_dash :: t') = true -> t = t'.
Proof.
  assert (H : forallb (fun t => forallb (fun t' => str_eqb t t' || negb (endswith (c_dash :: t) (c_dash :: t'))) RELEASE_TYPES)
                      RELEASE_TYPES = true) by (vm_compute; reflexivity).
  intros Ht Ht' He. rewrite forallb_forall in H. specialize (H t Ht). rewrite forallb_forall in H. specialize (H t' Ht').
  rewrite He, orb_false_r in H. apply str_eqb_eq. exact H.
Qed.

(* hence an id ends in "-t" for at most one t of the table: of two suffixes of one string, one is a suffix of the other *)
Lemma find_type_known l id t :
  incl l RELEASE_TYPES -> In t l -> endswith id (c_dash :: t) = true -> find_type l id = Some t.
Proof.
  intros Hl Hin He. induction l as [|t0 l IH]; [destruct Hin|]. cbn [find_type].
  destruct (endswith id (c_dash :: t0)) eqn:E.
  - f_equal. pose proof (Hl t0 (or_introl eq_refl)) as Ht0. pose proof (Hl t Hin) as Ht.
    apply endswith_spec in He, E. destruct He as [w He], E as [w0 E]. rewrite He in E.
    destruct (app_eq_app _ _ _ _ E) as (x & [[_ H]|[_ H]]);
      [|symmetry]; apply types_no_suffix; try assumption; apply endswith_spec; exists x; exact H.
  - destruct Hin as [->|Hin]; [congruence|]. apply IH; [|exact Hin]. intros y Hy. apply Hl. right. exact Hy.
Qed.

Lemma find_type_none l id :
  (forall t, In t l -> endswith id (c_dash :: t) = false) -> find_type l id = None.
Proof.
  induction l as [|t l IH]; intros H; cbn [find_type]; [reflexivity|].
  rewrite (H t (or_introl eq_refl)). apply IH. intros t' Ht'. apply H. right. exact Ht'.
Qed.

Lemma dash_suffix_last_seg s v t :
  ~ In c_dash v -> endswith (s ++ c_dash :: v) (c_dash :: t) = true -> v = last_seg t.
Proof.
  intros Hv He. apply endswith_spec in He. destruct He as [w Hw].
  unfold last_seg. destruct (split_last c_dash t) as [[x y]|] eqn:E.
  - apply split_last_some in E. destruct E as [-> Hy].
    change (w ++ c_dash :: x ++ c_dash :: y) with (w ++ (c_dash :: x) ++ c_dash :: y) in Hw. rewrite app_assoc in Hw.
    apply (split_last_inj _ _ _ _ _ Hw Hv Hy).
  - apply split_last_none_inv in E. apply (split_last_inj _ _ _ _ _ Hw Hv E).
Qed.

Lemma rsplit2_app s v w :
  ~ In c_dash v -> ~ In c_dash w -> rsplit2 (s ++ c_dash :: v ++ c_dash :: w) = Some (s, v, w).
Proof.
  intros Hv Hw. unfold rsplit2. change (s ++ c_dash :: v ++ c_dash :: w) with (s ++ (c_dash :: v) ++ c_dash :: w).
  rewrite app_assoc, (split_last_app _ _ _ Hw), (split_last_app _ _ _ Hv). reflexivity.
Qed.

(* the inherently ambiguous inputs: a dashed short name, the implicit type ga, and a version that is itself acceptable as a
   type word, e.g. ("a-b", "eus", "ga"), whose id "a-b-eus" is also that of ("a", "b", "eus") *)
Definition K2 (s v t : str) : Prop := In c_dash s /\ t = ga /\ valid_type v = true.

Definition part_id (s v t : str) : str :=
  if str_eqb t ga then s ++ c_dash :: v else s ++ c_dash :: v ++ c_dash :: t.

Lemma parse_part_roundtrip s v t :
  In t RELEASE_TYPES -> ~ In c_dash v -> ~ K2 s v t ->
  parse_part (part_id s v t) = Ok (s, v, t).
Proof.
  intros Ht Hv HK. unfold part_id, parse_part. rewrite <- count_0 in Hv.
  destruct (str_eqb_spec t ga) as [->|Hga].
  - (* implicit ga: one dash in all, or the last segment is not a type *)
    rewrite count_app. cbn [count]. rewrite N.eqb_refl, Hv. apply count_0 in Hv.
    destruct (count c_dash s) as [|n] eqn:Ec; cbn [Nat.add Nat.eqb].
    + apply count_0 in Ec. rewrite (split_first_app c_dash s v Ec). reflexivity.
    + rewrite Nat.add_comm. cbn [Nat.add Nat.eqb].
      assert (Hvt : valid_type v = false).
      { destruct (valid_type v) eqn:E; [|reflexivity]. destruct HK. repeat split; [|exact E].
        destruct (in_dec N.eq_dec c_dash s) as [H|H]; [exact H|]. apply count_0 in H. congruence. }
      rewrite find_type_none, (split_last_app c_dash s v Hv), Hvt; [reflexivity|].
      intros t' Ht'. destruct (endswith (s ++ c_dash :: v) (c_dash :: t')) eqn:E; [|reflexivity].
      apply dash_suffix_last_seg in E; [|exact Hv]. rewrite E, (types_last_seg t' Ht') in Hvt. discriminate.
  - (* explicit known type: at least two dashes *)
    rewrite !count_app. cbn [count]. rewrite N.eqb_refl, count_app. cbn [count]. rewrite N.eqb_refl, Hv.
    rewrite !Nat.add_succ_r. cbn [Nat.eqb]. apply count_0 in Hv.
    rewrite (find_type_known _ _ t (incl_refl _) Ht).
    + change (c_dash :: t) with ([c_dash] ++ t). rewrite (app_assoc v), app_comm_cons, app_assoc, drop_last_app.
      rewrite (rsplit2_app s v [] Hv (fun H => H)). reflexivity.
    + apply endswith_spec. exists (s ++ c_dash :: v). rewrite <- app_assoc. reflexivity.
Qed.

Lemma create_part_ok s v t id :
  create_part s v t = Ok id -> id = part_id s v t /\ valid_short s = true /\ valid_version v = true /\ valid_type t = true.
Proof.
  unfold create_part, part_id.
  destruct (valid_short s), (valid_version v), (valid_type t); cbn [negb]; try discriminate.
  intros H; injection H as <-. auto.
Qed.

Lemma doc_short_no_at s : (exists body, (s = body \/ s = body ++ [c_nl]) /\ DocShort body) -> ~ In c_at s.
Proof.
  intros (body & Hs & Hd) Hin.
  assert (H : In c_at body) by (destruct Hs as [->| ->]; [exact Hin|apply in_app_or in Hin; destruct Hin as [H|[H|[]]]; [exact H|discriminate]]).
  destruct (DocShort_chars _ _ Hd H); discriminate.
Qed.

Lemma valid_short_no_at s : valid_short s = true -> ~ In c_at s.
Proof. intros H. apply doc_short_no_at, valid_short_lang, H. Qed.

Lemma valid_type_no_at s : valid_type s = true -> ~ In c_at s.
Proof. intros H. apply doc_short_no_at, valid_type_lang, H. Qed.

Lemma part_id_no_at s v t :
  ~ In c_at s -> ~ In c_at v -> ~ In c_at t -> ~ In c_at (part_id s v t).
Proof.
  intros Hs Hv Ht. unfold part_id.
  destruct (str_eqb t ga); repeat (apply not_in_app; [assumption|]; intros [H|H]; [discriminate|revert H]); assumption.
Qed.

Lemma create_part_parse s v t r :
  In t RELEASE_TYPES -> ~ In c_dash v -> ~ In c_at v -> ~ K2 s v t ->
  create_part s v t = Ok r -> ~ In c_at r /\ parse_part r = Ok (s, v, t).
Proof.
  intros Ht Hv Hva HK E. apply create_part_ok in E. destruct E as (-> & Hs & _ & Hty). split.
  - apply part_id_no_at; [apply valid_short_no_at, Hs|exact Hva|apply valid_type_no_at, Hty].
  - apply parse_part_roundtrip; assumption.
Qed.

Theorem relid_roundtrip s v t bp id :
  In t RELEASE_TYPES -> ~ In c_dash v -> ~ In c_at v -> ~ K2 s v t ->
  match bp with
  | None => True
  | Some (bs, bv, bt) => In bt RELEASE_TYPES /\ ~ In c_dash bv /\ ~ In c_at bv /\ ~ K2 bs bv bt
  end ->
  create_release_id s v t bp = Ok id ->
  parse_release_id id = Ok ((s, v, t), bp).
Proof.
  intros Ht Hv Hva HK Hbp Hc. unfold create_release_id in Hc.
  destruct (create_part s v t) as [r|e] eqn:Er; cbn [bind] in Hc; [|discriminate].
  destruct (create_part_parse _ _ _ _ Ht Hv Hva HK Er) as [Hr_at Hr]. unfold parse_release_id.
  destruct bp as [[[bs bv] bt]|].
  - destruct Hbp as (Hbt & Hbv & Hbva & HbK).
    destruct (create_part bs bv bt) as [b|e] eqn:Eb; cbn [bind] in Hc; [|discriminate]. injection Hc as <-.
    destruct (create_part_parse _ _ _ _ Hbt Hbv Hbva HbK Eb) as [Hb_at Hb].
    rewrite memc_app. cbn [memc]. rewrite N.eqb_refl, orb_true_r, (split_two _ _ _ Hr_at Hb_at), Hr, Hb. reflexivity.
  - injection Hc as <-. rewrite (proj2 (memc_false _ _) Hr_at), Hr. reflexivity.
Qed.

Lemma relid_ambiguous :
  exists id, create_release_id (lit "a-b") (lit "eus") (lit "ga") None = Ok id /\
             create_release_id (lit "a") (lit "b") (lit "eus") None = Ok id /\
             In (lit "eus") RELEASE_TYPES /\ In (lit "ga") RELEASE_TYPES.
Proof. exists (lit "a-b-eus"). vm_compute. repeat split; auto 20. Qed.

Example relid_example :
  exists id, create_release_id (lit "my-product") (lit "1.0") (lit "ga") (Some (lit "rhel-ha", lit "Xga", lit "updates-testing")) = Ok id /\
             parse_release_id id = Ok ((lit "my-product", lit "1.0", lit "ga"), Some (lit "rhel-ha", lit "Xga", lit "updates-testing")).
Proof. exists (lit "my-product-1.0@rhel-ha-Xga-updates-testing"). split; vm_compute; reflexivity. Qed.
