(* the text of decimal integers: [split] after [join], [strip_ws], and [py_int] read back from [show_Z] *)
From PM Require Import Base.PyVal Model.Common Proofs.StrDec Proofs.ListLemmas Proofs.StrLemmas.

Lemma split_join c l : l <> [] -> (forall x, In x l -> ~ In c x) -> split c (join [c] l) = l.
Proof.
  unfold split. induction l as [|x l IH]; intros Hne Hin; [congruence|].
  destruct l as [|y l'].
  - cbn [join]. rewrite split_acc_notin by (apply Hin; left; reflexivity). reflexivity.
  - change (join [c] (x :: y :: l')) with (x ++ c :: join [c] (y :: l')).
    rewrite split_acc_app by (apply Hin; left; reflexivity). cbn [rev app]. f_equal.
    apply IH; [discriminate|]. intros z Hz. apply Hin. right. exact Hz.
Qed.

Lemma forallb_join (p : chr -> bool) sep l : forallb p sep = true -> (forall x, In x l -> forallb p x = true) -> forallb p (join sep l) = true.
Proof.
  intros Hs. induction l as [|x l IH]; intros Hl; [reflexivity|]. destruct l as [|y l'].
  - cbn [join]. apply Hl. left. reflexivity.
  - change (join sep (x :: y :: l')) with (x ++ sep ++ join sep (y :: l')). rewrite !forallb_app, Hs, (Hl x (or_introl eq_refl)).
    rewrite IH; [reflexivity|]. intros z Hz. apply Hl. right. exact Hz.
Qed.

Definition ws (c : chr) : bool := N.eqb c 32 || N.eqb c 10 || N.eqb c 9 || N.eqb c 13.
Definition nows (s : str) : Prop := forallb (fun c => negb (ws c)) s = true.

Lemma strip_right_nows s : nows s -> strip_right ws s = s.
Proof.
  unfold nows. induction s as [|x s IH]; cbn [forallb strip_right]; [reflexivity|]. intros H. apply andb_true_iff in H. destruct H as [Hx Hs].
  rewrite (IH Hs). apply negb_true_iff in Hx. destruct s; [rewrite Hx; reflexivity|reflexivity].
Qed.

Lemma strip_ws_nows s : nows s -> strip_ws s = s.
Proof.
  intros H. unfold strip_ws. change (fun c => N.eqb c 32 || N.eqb c 10 || N.eqb c 9 || N.eqb c 13) with ws.
  destruct s as [|x s]; [reflexivity|]. cbn [strip_left]. pose proof H as H'. unfold nows in H'. cbn [forallb] in H'. apply andb_true_iff in H'.
  destruct H' as [Hx _]. apply negb_true_iff in Hx. rewrite Hx. apply strip_right_nows. exact H.
Qed.

Lemma digit_not_ws c : is_digit c = true -> ws c = false.
Proof.
  unfold is_digit, ws. intros H. apply andb_true_iff in H. destruct H as [H1 H2]. apply N.leb_le in H1, H2.
  destruct (N.eqb_spec c 32), (N.eqb_spec c 10), (N.eqb_spec c 9), (N.eqb_spec c 13); try lia; reflexivity.
Qed.

Definition numchar (c : chr) : bool := is_digit c || N.eqb c 45.

Lemma digit_or_not_ws k c : ws k = false -> is_digit c || N.eqb c k = true -> ws c = false.
Proof. intros Hk Hc. apply orb_true_iff in Hc. destruct Hc as [Hc|Hc]; [exact (digit_not_ws c Hc)|apply N.eqb_eq in Hc; subst c; exact Hk]. Qed.

Lemma show_Z_numchars z : forallb numchar (show_Z z) = true.
Proof.
  assert (D : forall s, forallb is_digit s = true -> forallb numchar s = true).
  { intros s. apply forallb_imp. intros x Hx. unfold numchar. rewrite Hx. reflexivity. }
  destruct z as [|p|p]; cbn [show_Z]; [reflexivity|apply D; apply show_dec_digits|].
  cbn [forallb]. rewrite (D _ (show_dec_digits _)). reflexivity.
Qed.

Lemma show_Z_nonempty z : show_Z z <> [].
Proof. destruct z as [|p|p]; cbn [show_Z]; [discriminate|apply show_dec_nonempty|discriminate]. Qed.

Lemma strip_ws_show_Z z : strip_ws (show_Z z) = show_Z z.
Proof.
  apply strip_ws_nows. generalize (show_Z_numchars z). apply forallb_imp. intros c Hc. rewrite (digit_or_not_ws 45 c eq_refl Hc). reflexivity.
Qed.

Lemma show_Z_no_dot z : ~ In c_dot (show_Z z).
Proof. intros Hin. pose proof (proj1 (forallb_forall _ _) (show_Z_numchars z) _ Hin) as H. discriminate H. Qed.

(* int() of a text tells a leading '-' from the other characters by a match on the character code; the proofs follow that match
   bit by bit: off the path of 45 every branch is the same [if] *)
Lemma py_int_digits c ds :
  forallb is_digit (c :: ds) = true -> py_int (PStr (c :: ds)) = Ok (PInt (Z.of_N (parse_dec (c :: ds)))).
Proof.
  intros Hd. cbn [py_int].
  rewrite strip_ws_nows by (revert Hd; apply forallb_imp; intros x Hx; rewrite (digit_not_ws x Hx); reflexivity).
  destruct c as [|p]; [discriminate Hd|]. do 6 (destruct p as [p|p|]; try (rewrite Hd; reflexivity)). discriminate Hd.
Qed.

Lemma py_int_show_Z z : py_int (PStr (show_Z z)) = Ok (PInt z).
Proof.
  pose proof (strip_ws_show_Z z) as Es. destruct z as [|p|p]; cbn [show_Z] in *.
  - reflexivity.
  - pose proof (show_dec_digits (Npos p)) as Hd. pose proof (show_dec_nonempty (Npos p)) as Hn.
    destruct (show_dec (Npos p)) as [|c ds] eqn:E; [congruence|].
    rewrite (py_int_digits c ds Hd), <- E, parse_show_dec. reflexivity.
  - pose proof (show_dec_digits (Npos p)) as Hd. pose proof (show_dec_nonempty (Npos p)) as Hn. cbn [py_int].
    rewrite Es, Hd. destruct (show_dec (Npos p)) eqn:E; [congruence|]. cbn [negb andb]. rewrite <- E, parse_show_dec. reflexivity.
Qed.

Lemma py_int_PInt v w : py_int v = Ok w -> exists z, w = PInt z.
Proof.
  assert (L : forall (b : bool) z e, (if b then Ok (PInt z) else Err e) = Ok w -> exists z', w = PInt z').
  { intros [] z e H; [injection H as <-; eauto|discriminate]. }
  destruct v as [|b|z|tok|s|l|kv]; cbn [py_int]; try discriminate; try (intros H; injection H as <-; eauto).
  - destruct (split_first c_dot tok) as [[ip fr]|]; [|discriminate]. destruct ip as [|c ds]; [apply L|]. destruct c as [|p]; [apply L|].
    do 6 (destruct p as [p|p|]; try apply L).
  - destruct (strip_ws s) as [|c ds]; [discriminate|]. destruct c as [|p]; [apply L|].
    do 6 (destruct p as [p|p|]; try apply L).
Qed.
