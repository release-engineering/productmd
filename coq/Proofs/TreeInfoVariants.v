(* C04: the top-level variants of a written .treeinfo whose variants have no children: each one read is a written one with its
   facts (read_one), and every written non-addon variant is read (flat_variants_complete) *)
From PM Require Import Base.PyVal Base.Obj Base.Ini Model.Common Model.TreeInfo Proofs.Monad Proofs.ListLemmas Proofs.KeyedSort
  Proofs.KeySort Proofs.AssocLemmas Proofs.TextLemmas Proofs.IniLemmas Gen.Tables Proofs.TreeInfoWriter Proofs.TreeInfoReadBack.
From Coq Require Import Permutation.

Definition core4 : list str := [F"id"; F"uid"; F"name"; F"type"].

Definition sec_spec (q : ini) (f paths : obj) : Prop :=
  let sec := tv_section f in
  (forall o, In o core4 -> exists s, getf f o = PStr s /\ ini_get q sec o = Ok s) /\
  (forall fld, In fld TI_PATH_FIELDS ->
     (getf paths fld = PNone /\ ini_get q sec fld = Err OtherError) \/ (exists s, getf paths fld = PStr s /\ ini_get q sec fld = Ok s)) /\
  ini_get q sec (F"addons") = Err OtherError.

(* the body of ser_tvar's loop over TI_PATH_FIELDS *)
Definition path_step (paths : obj) (sec : str) (q : ini) (field : str) : result ini :=
  match getf paths field with PNone => Ok q | v => ini_set q sec field v end.

Lemma path_step_cases paths sec q fld q1 : path_step paths sec q fld = Ok q1 ->
  (getf paths fld = PNone /\ q1 = q) \/ (exists s, getf paths fld = PStr s /\ ini_set q sec fld (PStr s) = Ok q1).
Proof.
  unfold path_step. destruct (getf paths fld); intros H; try discriminate H; [left; injection H as <-; auto|right; eauto].
Qed.

Lemma path_fold paths sec fields : forall q q',
  fold_left (fun acc field => do q <- acc; path_step paths sec q field) fields (Ok q) = Ok q' ->
  NoDup fields ->
  (forall o, ~ In o fields -> ini_get q' sec o = ini_get q sec o) /\
  (forall fld, In fld fields -> (getf paths fld = PNone /\ ini_get q' sec fld = ini_get q sec fld) \/ (exists s, getf paths fld = PStr s /\ ini_get q' sec fld = Ok s)).
Proof.
  induction fields as [|fld fields IH]; intros q q' H Hnd.
  - injection H as <-. split; [reflexivity|intros fld []].
  - apply fold_bind_cons in H. destruct H as (q1 & E & H). inversion Hnd as [|? ? Hx Hr]; subst. destruct (IH q1 q' H Hr) as (I2 & I3).
    assert (S2 : forall o, o <> fld -> ini_get q1 sec o = ini_get q sec o).
    { destruct (path_step_cases _ _ _ _ _ E) as [[_ ->]|(s & _ & Hs)]; [reflexivity|].
      intros o Ho. apply (ini_set_get_other _ _ _ _ _ _ _ Hs). right. exact Ho. }
    split.
    + intros o Ho. cbn [In] in Ho. rewrite I2 by tauto. apply S2. intros ->. tauto.
    + intros fld' [<-|Hin].
      * rewrite (I2 fld Hx). destruct (path_step_cases _ _ _ _ _ E) as [[En ->]|(s & Es & Hs)]; [left; auto|].
        right. exists s. split; [exact Es|exact (ini_set_get_same _ _ _ _ _ Hs)].
      * destruct (I3 fld' Hin) as [[En Eg]|R]; [|right; exact R]. left. split; [exact En|]. rewrite Eg. apply S2. intros ->. contradiction.
Qed.

Lemma core4_not_path o : In o (F"addons" :: core4) -> ~ In o TI_PATH_FIELDS.
Proof.
  intros H Hin. apply mem_str_In in Hin. cbn [In core4] in H.
  destruct H as [<-|[<-|[<-|[<-|[<-|[]]]]]]; vm_compute in Hin; discriminate Hin.
Qed.

Lemma ser_tvar_flat f paths p p' : ser_tvar None (TV f paths []) p = Ok p' ->
  assoc (tv_section f) p = None /\ only_in (fun s => s = tv_section f) p p' /\ sec_spec p' f paths.
Proof.
  intros H. cbn [ser_tvar] in H. set (sec := tv_section f) in *.
  inv_bind H as u0 G0. inv_bind H as p1 G1. inv_bind H as p2 G2. inv_bind H as u1 G3. inv_bind H as p3 G4.
  cbn [bind] in H. injection H as <-.
  destruct (path_fold paths sec TI_PATH_FIELDS p2 p3 G4 (distinct_nodup TI_PATH_FIELDS eq_refl)) as (F2 & F3).
  destruct (sets_get _ _ _ _ G2 eq_refl) as [S1 S2].
  assert (Hfresh : forall o, ~ In o core4 -> ini_get p2 sec o = Err OtherError).
  { intros o Ho. rewrite S2; [exact (add_section_fresh _ _ _ o G1)|]. apply assoc_None. exact Ho. }
  split; [exact (proj1 (add_section_spec _ _ _ G1))|]. split.
  { apply (writes_trans _ p p2 p3); [exact (section_writes _ _ _ _ _ _ G1 G2 eq_refl)|]. revert G4. apply fold_writes.
    intros q fld q' Hq. destruct (path_step_cases _ _ _ _ _ Hq) as [[_ ->]|(s & _ & Hs)]; [apply writes_refl|exact (ini_set_writes _ _ _ _ _ _ Hs eq_refl)]. }
  unfold sec_spec. fold sec. split; [|split].
  - intros o Ho. destruct (S1 o (getf f o)) as (s & Es & Gs).
    { cbn [In core4] in Ho. destruct Ho as [<-|[<-|[<-|[<-|[]]]]]; reflexivity. }
    exists s. split; [exact Es|]. rewrite F2; [exact Gs|]. apply core4_not_path. right. exact Ho.
  - intros fld Hf. destruct (F3 fld Hf) as [[En Eg]|R]; [left|right; exact R]. split; [exact En|]. rewrite Eg. apply Hfresh.
    intros Hin. exact (core4_not_path fld (or_intror Hin) Hf).
  - rewrite F2 by (apply core4_not_path; left; reflexivity). apply Hfresh. intros Hin. apply mem_str_In in Hin. discriminate Hin.
Qed.

Definition vsec (kv : str * tvar) : str := tv_section (tv_fields (snd kv)).
Definition flat (kv : str * tvar) : Prop := tv_children (snd kv) = [].
Definition vstep (acc : result ini) (kv : str * tvar) : result ini := do q <- acc; ser_tvar None (snd kv) q.

Lemma sec_spec_transport q q' f paths : assoc (tv_section f) q' = assoc (tv_section f) q -> sec_spec q f paths -> sec_spec q' f paths.
Proof. unfold sec_spec, ini_get. cbv zeta. intros ->. exact (fun S => S). Qed.

Lemma sec_spec_present q f paths : sec_spec q f paths -> assoc (tv_section f) q <> None.
Proof.
  intros (S1 & _) E. destruct (S1 (F"id")) as (s & _ & Gs); [left; reflexivity|]. rewrite (ini_get_none _ _ _ E) in Gs. discriminate.
Qed.

Definition written (kv : str * tvar) (q : ini) : Prop := sec_spec q (tv_fields (snd kv)) (tv_paths (snd kv)).

Lemma vfold_spec vs : forall q q',
  fold_left vstep vs (Ok q) = Ok q' -> (forall kv, In kv vs -> flat kv) ->
  (forall kv, In kv vs -> sec_spec q' (tv_fields (snd kv)) (tv_paths (snd kv))) /\
  only_in (fun s => exists kv, In kv vs /\ s = vsec kv) q q' /\
  (forall s, assoc s q <> None -> ~ exists kv, In kv vs /\ s = vsec kv).
Proof.
  induction vs as [|kv vs IH]; intros q q' H Hflat.
  - injection H as <-. split; [intros kv []|]. split; [apply only_in_refl|]. intros s _ (kv & [] & _).
  - apply fold_bind_cons in H. destruct H as (q2 & E & H).
    destruct kv as [k [f paths ch]]. pose proof (Hflat _ (or_introl eq_refl)) as Hc. unfold flat in Hc. cbn [snd tv_children] in Hc. subst ch.
    destruct (ser_tvar_flat f paths q q2 E) as (A & O & S).
    destruct (IH q2 q' H (fun kv' Hk => Hflat kv' (or_intror Hk))) as (I1 & I2 & I3).
    (* its section is there after its step, so no later variant has the same one *)
    assert (Hnot : ~ exists kv', In kv' vs /\ tv_section f = vsec kv') by exact (I3 _ (sec_spec_present _ _ _ S)).
    split; [|split].
    + intros kv' [<-|Hk]; [|exact (I1 kv' Hk)]. exact (sec_spec_transport q2 q' _ _ (I2 _ Hnot) S).
    + intros s Hs. rewrite I2 by (intros (kv' & Hk & Es); apply Hs; exists kv'; split; [right; exact Hk|exact Es]).
      apply O. intros ->. apply Hs. exists (k, TV f paths []). split; [left; reflexivity|reflexivity].
    + intros s Hs (kv' & [<-|Hk] & Es).
      * unfold vsec in Es. cbn [snd tv_fields] in Es. subst s. contradiction.
      * apply (I3 s); [|exists kv'; split; assumption]. rewrite (O s); [exact Hs|]. intros ->. contradiction.
Qed.

Lemma variants_written x mv t : ser_ti x mv = Ok t -> (forall kv, In kv (ti_variants x) -> flat kv) ->
  (forall kv, In kv (ti_variants x) -> written kv t) /\
  (forall s, is_variant_section s -> assoc s t <> None -> exists kv, In kv (ti_variants x) /\ s = vsec kv).
Proof.
  intros Hw Hflat. destruct (proj2 (ser_ti_frame x mv t Hw) KVariants) as (p & p' & G & Fr).
  destruct (vfold_spec _ _ _ G Hflat) as (I1 & I2 & _). split.
  - intros kv Hk. apply (sec_spec_transport p' t); [|exact (I1 kv Hk)]. exact (proj2 (Fr _ (variant_kind _ (tv_section_is _)))).
  - intros s Hs Ht. destruct (Fr s (variant_kind s Hs)) as [A E].
    destruct (in_dec str_eq_dec s (map vsec (ti_variants x))) as [Hi|Hi].
    + apply in_map_iff in Hi. destruct Hi as (kv & <- & Hk). eauto.
    + exfalso. apply Ht. rewrite E, I2; [exact A|]. intros (kv & Hk & ->). exact (Hi (in_map vsec _ _ Hk)).
Qed.

(* the body of r_variants' loop over the names in [tree] variants *)
Definition rstep (t : ini) (acc : result (list (str * tvar))) (vid : str) : result (list (str * tvar)) :=
  do vs <- acc;
  do v <- deser_tvar (S (length t)) false t None vid false;
  check tvalidate (F"treeinfo.Variant") (tv_ctx None v);
  let key := fmt_s (getf (tv_fields v) (F"uid")) in
  match assoc key vs with Some _ => Err ValueError | None => Ok (vs ++ [(key, v)]) end.

Definition by_uid (p : str * tvar) : str * tvar := (fmt_s (getf (tv_fields (snd p)) (F"uid")), snd p).

Lemma rfold_spec t vids : forall acc res, fold_left (rstep t) vids (Ok acc) = Ok res ->
  exists read, vids = map fst read /\ res = acc ++ map by_uid read /\
    (forall vid v, In (vid, v) read -> deser_tvar (S (length t)) false t None vid false = Ok v) /\
    (NoDup (map fst acc) -> NoDup (map fst res)).
Proof.
  induction vids as [|vid vids IH]; intros acc res H.
  - injection H as <-. exists []. rewrite app_nil_r. split; [reflexivity|]. split; [reflexivity|]. split; [intros ? ? []|auto].
  - apply fold_bind_cons in H. destruct H as (acc1 & E & H). inv_bind E as v Gd. inv_bind E as u Gv. cbv zeta in E.
    destruct (assoc _ acc) eqn:Ea; [discriminate|]. injection E as <-.
    destruct (IH _ _ H) as (read & -> & -> & Hd & Hn). exists ((vid, v) :: read).
    split; [reflexivity|]. split; [rewrite <- app_assoc; reflexivity|]. split.
    + intros vid' v' [Ev|Hin]; [injection Ev as <- <-; exact Gd|exact (Hd _ _ Hin)].
    + intros Ha. apply Hn. rewrite map_app. exact (NoDup_keys_fresh _ _ Ea Ha).
Qed.

Lemma variants_read x mv t x' : ser_ti x mv = Ok t -> deser_ti t = Ok x' ->
  exists read,
    (forall s, ini_get t (F"tree") (F"variants") = Ok s -> map fst read = split c_comma s) /\
    ti_variants x' = map by_uid read /\ NoDup (map fst (ti_variants x')) /\
    (forall vid v, In (vid, v) read -> deser_tvar (S (length t)) false t None vid false = Ok v).
Proof.
  intros Hw Hr. destruct (reader_on_written x mv t x' Hw Hr) as (_ & _ & arch & _ & G). unfold r_variants in G.
  inv_bind G as vids Gv. inv_bind G as vs Gf. inv_bind G as u Gu. injection G as <-.
  destruct (rfold_spec _ _ _ _ Gf) as (read & -> & -> & Hd & Hn). exists read. split; [|split; [reflexivity|split; [apply Hn; constructor|exact Hd]]].
  intros s Hs. rewrite (ini_get_has_option _ _ _ _ Hs), Hs in Gv. injection Gv as <-. reflexivity.
Qed.

Lemma written_opt_get kv q : written kv q ->
  (forall o, In o core4 -> opt_get q (vsec kv) o = getf (tv_fields (snd kv)) o) /\
  (forall fld, In fld TI_PATH_FIELDS -> opt_get q (vsec kv) fld = getf (tv_paths (snd kv)) fld) /\
  has_option q (vsec kv) (F"addons") = false.
Proof.
  intros (S1 & S2 & S3). fold (vsec kv) in S1, S2, S3. split; [|split].
  - intros o Ho. destruct (S1 o Ho) as (s & -> & G). rewrite opt_get_ini, G. reflexivity.
  - intros fld Hf. rewrite opt_get_ini. destruct (S2 fld Hf) as [[-> ->]|(s & -> & ->)]; reflexivity.
  - rewrite has_option_ini, S3. reflexivity.
Qed.

(* tv_section looks at type and uid only *)
Lemma tv_section_core4 f : tv_section (map (fun o => (o, getf f o)) core4) = tv_section f.
Proof. reflexivity. Qed.

Lemma deser_top_inv t n vid v : deser_tvar (S n) false t None vid false = Ok v ->
  assoc (lit "variant-" ++ vid) t <> None /\
  let f := map (fun o => (o, opt_get t (lit "variant-" ++ vid) o)) core4 in
  tv_fields v = f /\
  (has_option t (tv_section f) (F"addons") = false ->
     tv_children v = [] /\ tv_paths v = map (fun field => (field, opt_get t (tv_section f) field)) TI_PATH_FIELDS).
Proof.
  intros H. cbn [deser_tvar] in H. inv_bind H as u0 G0. cbv zeta in H. cbn [andb] in H.
  inv_bind H as id Gi. inv_bind H as uid' Gu. inv_bind H as name Gn. inv_bind H as ty Gt.
  split; [intros E; rewrite (ini_get_none _ _ _ E) in Gi; discriminate|]. cbv zeta.
  replace (map _ core4) with [(F"id", PStr id); (F"uid", PStr uid'); (F"name", PStr name); (F"type", PStr ty)]
    by (cbn [map core4]; rewrite !opt_get_ini, Gi, Gu, Gn, Gt; reflexivity).
  set (f := [(F"id", PStr id); (F"uid", PStr uid'); (F"name", PStr name); (F"type", PStr ty)]) in *.
  destruct (has_option t (tv_section f) (F"addons")) eqn:Ea.
  - inv_bind H as ch Gc. inv_bind H as u1 G1. injection H as <-. split; [reflexivity|discriminate].
  - cbn [bind] in H. inv_bind H as u1 G1. injection H as <-. split; [reflexivity|]. intros _. split; reflexivity.
Qed.

Definition facts_of (kv : str * tvar) (v' : tvar) : Prop :=
  tv_fields v' = [(F"id", getf (tv_fields (snd kv)) (F"id")); (F"uid", getf (tv_fields (snd kv)) (F"uid"));
                  (F"name", getf (tv_fields (snd kv)) (F"name")); (F"type", getf (tv_fields (snd kv)) (F"type"))] /\
  tv_children v' = [] /\
  (forall fld, In fld TI_PATH_FIELDS -> getf (tv_paths v') fld = getf (tv_paths (snd kv)) fld).

Lemma read_written t n vid v' kv :
  written kv t -> vsec kv = lit "variant-" ++ vid -> deser_tvar (S n) false t None vid false = Ok v' -> facts_of kv v'.
Proof.
  intros W Esec Hd. destruct (written_opt_get kv t W) as (C & P & A). rewrite Esec in C, P, A.
  destruct (deser_top_inv t n vid v' Hd) as (_ & Hf & Hrest). cbv zeta in Hf, Hrest.
  rewrite (map_ext_in _ (fun o => (o, getf (tv_fields (snd kv)) o)) core4) in Hf, Hrest by (intros o Ho; rewrite (C o Ho); reflexivity).
  (* the fields read name the section they were read from *)
  rewrite tv_section_core4 in Hrest. fold (vsec kv) in Hrest. rewrite Esec in Hrest.
  destruct (Hrest A) as (Hc & Hp). split; [exact Hf|]. split; [exact Hc|].
  intros fld Hfld. unfold getf at 1. rewrite Hp, assoc_tabulate, (proj2 (mem_str_In _ _) Hfld). exact (P fld Hfld).
Qed.

Lemma read_one x mv t n vid v' :
  ser_ti x mv = Ok t -> (forall kv, In kv (ti_variants x) -> flat kv) ->
  deser_tvar (S n) false t None vid false = Ok v' ->
  exists kv, In kv (ti_variants x) /\ lit "variant-" ++ vid = vsec kv /\ facts_of kv v'.
Proof.
  intros Hw Hflat Hd. destruct (variants_written x mv t Hw Hflat) as (W1 & W2).
  destruct (W2 (lit "variant-" ++ vid)) as (kv & Hk & Esec); [left; apply startswith_app|exact (proj1 (deser_top_inv _ _ _ _ Hd))|].
  exists kv. split; [exact Hk|]. split; [exact Esec|]. exact (read_written t n vid v' kv (W1 kv Hk) (eq_sym Esec) Hd).
Qed.

Lemma listed_is_split l u : (forall v, In v l -> exists s, v = PStr s /\ ~ In c_comma s) -> In (PStr u) l ->
  In u (split c_comma (join_strs [c_comma] (sort_list l))).
Proof.
  intros Hl Hu. unfold join_strs. rewrite sort_list_eq. set (strs := map _ (sort_by _ false l)).
  assert (Hin : In u strs) by (apply in_map_iff; exists (PStr u); split; [reflexivity|apply sort_by_In; exact Hu]).
  rewrite split_join; [exact Hin|intros E; rewrite E in Hin; exact Hin|].
  intros s Hs. apply in_map_iff in Hs. destruct Hs as (v & <- & Hv). apply sort_by_In in Hv. destruct (Hl v Hv) as (s & -> & Hc). exact Hc.
Qed.

Theorem flat_variants_complete x mv t x' :
  ser_ti x mv = Ok t -> deser_ti t = Ok x' -> (forall kv, In kv (ti_variants x) -> flat kv) ->
  (forall kv, In kv (ti_variants x) -> py_eq (getf (tv_fields (snd kv)) (F"type")) (PStr (F"addon")) = false) ->
  (forall kv u, In kv (ti_variants x) -> getf (tv_fields (snd kv)) (F"uid") = PStr u -> ~ In c_comma u) ->
  forall kv, In kv (ti_variants x) -> exists key v', In (key, v') (ti_variants x') /\ facts_of kv v'.
Proof.
  intros Hw Hr Hflat Hty Hcomma kv Hk.
  destruct (variants_written x mv t Hw Hflat) as (W1 & _).
  destruct (variants_read x mv t x' Hw Hr) as (read & Hvids & E & _ & Hd).
  destruct (tree_written x mv t Hw) as (_ & _ & _ & _ & _ & _ & _ & Gtv). specialize (Hvids _ Gtv).
  assert (Huid : forall kv', In kv' (ti_variants x) -> exists u, getf (tv_fields (snd kv')) (F"uid") = PStr u /\ ~ In c_comma u).
  { intros kv' Hk'. destruct (W1 kv' Hk') as (S1 & _). destruct (S1 (F"uid")) as (u & Eu & _); [cbn; auto|]. exists u. split; [exact Eu|exact (Hcomma kv' u Hk' Eu)]. }
  destruct (Huid kv Hk) as (u & Eu & _).
  (* its UID is one of the names in [tree] variants, so it is read, from a section that is this variant's *)
  assert (Hvid : In u (map fst read)).
  { rewrite Hvids. apply listed_is_split; [|rewrite <- Eu; exact (in_map (fun kv0 => getf (tv_fields (snd kv0)) (F"uid")) _ _ Hk)].
    intros v Hv. apply in_map_iff in Hv. destruct Hv as (kv' & <- & Hk'). exact (Huid kv' Hk'). }
  apply in_map_iff in Hvid. destruct Hvid as ([vid v'] & Ev & Hv). cbn [fst] in Ev. subst vid.
  eexists. exists v'. split; [rewrite E; exact (in_map by_uid _ _ Hv)|]. apply (read_written t (length t) u v' kv (W1 kv Hk)); [|exact (Hd _ _ Hv)].
  unfold vsec, tv_section. rewrite (Hty kv Hk), Eu. reflexivity.
Qed.

Example flat_variants_nonvacuous :
  exists t x' v', ser_ti ex_ti None = Ok t /\ deser_ti t = Ok x' /\ (forall kv, In kv (ti_variants ex_ti) -> flat kv) /\
    (forall kv, In kv (ti_variants ex_ti) -> py_eq (getf (tv_fields (snd kv)) (F"type")) (PStr (F"addon")) = false) /\
    (forall kv u, In kv (ti_variants ex_ti) -> getf (tv_fields (snd kv)) (F"uid") = PStr u -> ~ In c_comma u) /\
    In (F"Server", v') (ti_variants x') /\ getf (tv_paths v') (F"packages") = PStr (F"Packages").
Proof.
  eexists. eexists. eexists. split; [vm_compute; reflexivity|]. split; [vm_compute; reflexivity|].
  split; [intros kv [<-|[]]; reflexivity|]. split; [intros kv [<-|[]]; reflexivity|].
  split; [intros kv u [<-|[]] E; vm_compute in E; injection E as <-; vm_compute; intuition discriminate|].
  split; [left; reflexivity|vm_compute; reflexivity].
Qed.
