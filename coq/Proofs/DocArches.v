(* the architecture names the library documents (productmd.common.RPM_ARCHES as shipped: the rpm architecture families) -
   a frozen copy: the regenerated table may grow, but every name listed here must stay known *)
From PM Require Import Base.PyVal Model.Common Gen.Tables.

Definition DOC_RPM_ARCHES : list str := [
  F"aarch64";
  F"alpha";
  F"alphaev4";
  F"alphaev45";
  F"alphaev5";
  F"alphaev56";
  F"alphaev6";
  F"alphaev67";
  F"alphaev68";
  F"alphaev7";
  F"alphapca56";
  F"amd64";
  F"arm64";
  F"armhfp";
  F"armv5tejl";
  F"armv5tel";
  F"armv5tl";
  F"armv6hl";
  F"armv6l";
  F"armv7hl";
  F"armv7hnl";
  F"armv7l";
  F"armv8hl";
  F"armv8l";
  F"athlon";
  F"geode";
  F"i386";
  F"i486";
  F"i586";
  F"i686";
  F"ia32e";
  F"ia64";
  F"loongarch64";
  F"mips";
  F"mips64";
  F"mips64el";
  F"mipsel";
  F"ppc";
  F"ppc64";
  F"ppc64iseries";
  F"ppc64le";
  F"ppc64p7";
  F"ppc64pseries";
  F"riscv128";
  F"riscv32";
  F"riscv64";
  F"s390";
  F"s390x";
  F"sh3";
  F"sh4";
  F"sh4a";
  F"sparc";
  F"sparc64";
  F"sparc64v";
  F"sparcv8";
  F"sparcv9";
  F"sparcv9v";
  F"x86_64";
  F"src";
  F"nosrc";
  F"noarch"
].

Theorem documented_arch_is_known a : In a DOC_RPM_ARCHES -> mem_str a RPM_ARCHES = true.
Proof. revert a. apply forallb_forall. vm_compute. reflexivity. Qed.
