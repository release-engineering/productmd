(* C01: the whole composeinfo document - load (dump x) gives x back (path tables as written), and dumping that again gives the same document *)
From PM Require Import Model.ComposeInfo Proofs.Monad Proofs.CommonProofs Proofs.KeySort Proofs.ReleaseRoundtrip Proofs.PathsRoundtrip
  Proofs.ForestFlat Proofs.ForestRoundtrip.

Definition ci_normal (x : ci) : Prop :=
  compose_normal (ci_compose x) /\
  (exists name version short ty lay internal,
     ci_release x = mk_release name version short ty lay internal /\
     if lay then exists bn bv bs bt, ci_base_product x = mk_base_product bn bv bs bt
     else ci_base_product x = fresh_base_product) /\
  forest_normal (ci_variants x).

Definition wp_ci (x : ci) : ci :=
  {| ci_compose := ci_compose x; ci_release := ci_release x; ci_base_product := ci_base_product x;
     ci_variants := wp_list (ci_variants x) |}.

Lemma dump_ci_inv x doc :
  dump_ci x = Ok doc ->
  validate (F"composeinfo.ComposeInfo") [] = Ok tt /\
  exists jc jr bp d,
    ser_compose (ci_compose x) = Ok jc /\ ser_release release_cls (F"release") (ci_release x) = Ok (F"release", jr) /\
    (if truthy (getf (ci_release x) (F"is_layered"))
     then exists jb, ser_release bp_cls (F"base_product") (ci_base_product x) = Ok (F"base_product", jb) /\ bp = [(F"base_product", jb)]
     else bp = []) /\
    ser_variants (ci_variants x) = Ok (PDict d) /\
    doc = PDict [(F"header", PDict [(F"type", PStr ci_mtype); (F"version", current_version)]);
                 (F"payload", PDict ((F"compose", jc) :: (F"release", jr) :: bp ++ [(F"variants", PDict d)]))].
Proof.
  unfold dump_ci, ser_ci. rewrite ser_header_ok. cbn [bind]. intros H.
  inv_bind H as [] Hv. inv_bind H as jc Hjc. inv_bind H as r Hjr. inv_bind H as bp Hjb. inv_bind H as jv Hjv. injection H as <-.
  destruct (ser_release_inv _ _ _ _ Hjr) as [_ ->]. destruct (ser_variants_inv _ _ Hjv) as (_ & d & -> & _).
  split; [exact Hv|]. exists jc. eexists. exists bp, d. repeat split; try eassumption.
  destruct (truthy _); [|injection Hjb as <-; reflexivity].
  inv_bind Hjb as b Hb. injection Hjb as <-. destruct (ser_release_inv _ _ _ _ Hb) as [_ ->]. eauto.
Qed.

Theorem ci_roundtrip x doc :
  ci_normal x -> NoDup (forest_uids (ci_variants x)) ->
  dump_ci x = Ok doc -> load_ci doc = Ok (wp_ci x).
Proof.
  intros (Hc & (name & version & short & ty & lay & internal & Hr & Hbp) & Hf) Hnd H.
  destruct (dump_ci_inv x doc H) as (Hv & jc & jr & bp & d & Hjc & Hjr & Hjb & Hjv & ->).
  unfold load_ci, deser_ci, ci_mtype. rewrite deser_header_ser. cbn [bind snd].
  set (payload := PDict (_ :: _ :: _ ++ _)). change (dget (PDict [_; (_, payload)]) (F"payload")) with (Ok payload). cbn [bind].
  unfold payload at 1 2. rewrite (deser_compose_ser _ _ _ Hc Hjc). cbn [bind].
  rewrite Hr in Hjr, Hjb. rewrite (release_roundtrip _ _ _ _ _ _ _ jr _ Hjr) by reflexivity. cbn [bind].
  change (truthy (getf (mk_release name version short ty lay internal) (F"is_layered"))) with lay in Hjb |- *.
  assert (Hread : (if lay then deser_base_product payload else Ok fresh_base_product) = Ok (ci_base_product x) /\
                  dget payload (F"variants") = Ok (PDict d)).
  { destruct lay.
    - destruct Hbp as (bn & bv & bs & bt & Hb), Hjb as (jb & Hjb & ->). rewrite Hb in Hjb |- *.
      split; [|reflexivity]. apply (base_product_roundtrip _ _ _ _ _ jb _ Hjb). reflexivity.
    - subst bp. rewrite Hbp. split; reflexivity. }
  destruct Hread as [-> Hvs]. cbn [bind]. rewrite (forest_roundtrip _ d _ Hf Hnd Hjv Hvs). cbn [bind]. rewrite Hv.
  unfold wp_ci. rewrite Hr. reflexivity.
Qed.

Lemma dump_of_wp t : node_normal t -> dump_of (wp t) = dump_of t.
Proof.
  intros Hn. pose proof (normal_strs t Hn) as Hstrs. destruct t as [f p r cs].
  unfold dump_of, rel_part, is_layered_variant, child_ids. cbn [wp vt_fields vt_paths vt_release vt_children] in *.
  rewrite (ser_paths_of_written _ _ _ Hstrs), map_map, (map_ext _ (fun kv => getf (vt_fields (snd kv)) (F"id")))
    by (intros [k c]; cbn [fst snd]; rewrite wp_fields; reflexivity).
  destruct cs; reflexivity.
Qed.

Lemma ser_children_wp me cs :
  (forall k c, In (k, c) cs -> forall parent data, ser_variant parent (wp c) data = ser_variant parent c data) ->
  forall data, ser_children me (wp_list cs) data = ser_children me cs data.
Proof.
  induction cs as [|[k c] cs IH]; intros Hc data; [reflexivity|].
  cbn [wp_list map fst snd ser_children]. rewrite (Hc k c (or_introl eq_refl)). apply bind_ext. intros d.
  apply (IH (fun k' c' Hin => Hc k' c' (or_intror Hin))).
Qed.

Lemma ser_variant_wp t : tree_all node_normal t -> forall parent data, ser_variant parent (wp t) data = ser_variant parent t data.
Proof.
  induction t as [f paths rel cs IH] using vtree_ind2. intros Hn parent data.
  apply tree_all_unfold in Hn. destruct Hn as [Hn Hnc].
  rewrite !ser_variant_eq, validate_tree_node_wp, (dump_of_wp _ Hn). cbn [wp vt_children]. fold (wp_list cs).
  rewrite (ser_children_wp _ cs) by (intros k c Hin; exact (IH k c Hin (Hnc k c Hin))). reflexivity.
Qed.

Theorem ser_variants_wp vs : forest_all node_normal vs -> ser_variants (wp_list vs) = ser_variants vs.
Proof.
  intros Hn. unfold ser_variants, validate_container. rewrite child_entries_wp, (sort_keys_map wp vs : sort_keys (wp_list vs) = _).
  rewrite <- !ser_children_fold, ser_children_wp; [reflexivity|]. intros k c H. apply ser_variant_wp, (Hn k c).
  exact (Permutation.Permutation_in _ (sort_keys_is_perm vs) H).
Qed.

Lemma dump_ci_congr x y :
  ci_compose x = ci_compose y -> ci_release x = ci_release y -> ci_base_product x = ci_base_product y ->
  ser_variants (ci_variants x) = ser_variants (ci_variants y) -> dump_ci x = dump_ci y.
Proof. intros Hc Hr Hb Hv. unfold dump_ci, ser_ci. rewrite Hc, Hr, Hb, Hv. reflexivity. Qed.

Theorem ci_second_write x : forest_all node_normal (ci_variants x) -> dump_ci (wp_ci x) = dump_ci x.
Proof. intros Hn. apply dump_ci_congr; try reflexivity. exact (ser_variants_wp _ Hn). Qed.

Lemma in_wp_list k c l : In (k, c) (wp_list l) -> exists c0, c = wp c0 /\ In (k, c0) l.
Proof. intros H. apply in_map_iff in H. destruct H as ([k0 c0] & E & H). injection E as <- <-. eauto. Qed.

Lemma keyed_by_id_wp l : keyed_by_id l -> keyed_by_id (wp_list l).
Proof. intros H. apply Forall_map. revert H. apply Forall_impl. intros [k c]. cbn [fst snd]. rewrite wp_fields. auto. Qed.

Lemma keys_wp l : map fst (wp_list l) = map fst l.
Proof. unfold wp_list. rewrite map_map. reflexivity. Qed.

Lemma tree_normal_wp t : tree_all node_normal t -> tree_all node_normal (wp t).
Proof.
  induction t as [f paths rel cs IH] using vtree_ind2. intros H. apply tree_all_unfold in H. destruct H as [Hn Hc].
  cbn [wp]. fold (wp_list cs). apply tree_all_unfold. split.
  - split; [exact (proj1 Hn)|]. split; [exact (normal_release _ Hn)|]. split; [exact (keyed_by_id_wp _ (normal_keyed _ Hn))|].
    cbn [vt_children]. rewrite keys_wp. exact (normal_sorted _ Hn).
  - intros k c Hin. apply in_wp_list in Hin. destruct Hin as (c0 & -> & Hin). exact (IH k c0 Hin (Hc k c0 Hin)).
Qed.

(* what is read back is normal again, so the cycle can be repeated *)
Theorem forest_normal_wp vs : forest_normal vs -> forest_normal (wp_list vs).
Proof.
  intros (Hn & Hids & Hk & Hu). unfold forest_normal. rewrite keys_wp. repeat split; [|exact (keyed_by_id_wp _ Hids)|exact Hk|].
  - intros k c Hin. apply in_wp_list in Hin. destruct Hin as (c0 & -> & Hin). exact (tree_normal_wp _ (Hn k c0 Hin)).
  - unfold wp_list. rewrite map_map, (map_ext _ (fun kc => uid_s (snd kc))); [exact Hu|].
    intros [k c]. unfold uid_s. cbn [snd]. rewrite wp_fields. reflexivity.
Qed.

(* the example: depth 3, a layered-product variant, one empty path and one for an architecture the variant does not have *)
Definition ex_leaf (i u ty : str) (a : list pyval) : vtree := VT (mk_fields i u (PStr i) (PStr ty) a) [] fresh_release [].
Definition ex_forest : list (str * vtree) :=
  [(F"Server", VT (mk_fields (F"Server") (F"Server") (PStr (F"Server")) (PStr (F"variant")) [PStr (F"s390x"); PStr (F"x86_64")])
                  [(F"os_tree", [(F"x86_64", PStr (F"Server/x86_64/os")); (F"ppc64le", PStr (F"nowhere"))]); (F"packages", [(F"s390x", PStr [])])]
                  fresh_release
                  [(F"HA", VT (mk_fields (F"HA") (F"Server-HA") (PStr (F"High Availability")) (PStr (F"addon")) [PStr (F"x86_64")]) [] fresh_release
                              [(F"Extra", ex_leaf (F"Extra") (F"Server-HA-Extra") (F"optional") [PStr (F"x86_64")])]);
                   (F"optional", ex_leaf (F"optional") (F"Server-optional") (F"optional") [PStr (F"s390x")])]);
   (F"ToolsLP", VT (mk_fields (F"ToolsLP") (F"Tools-LP") (PStr (F"Tools")) (PStr (F"layered-product")) [PStr (F"x86_64")]) []
                   (mk_release (PStr (F"Tools")) (PStr (F"1.0")) (PStr (F"TL")) (PStr (F"ga")) true false) [])].
Definition ex_ci : ci :=
  {| ci_compose := mk_compose (PStr (F"Fedora-22-20150522.n.0")) (PStr (F"nightly")) (PStr (F"20150522")) (PInt 0) PNone (PBool false);
     ci_release := mk_release (PStr (F"Fedora")) (PStr (F"22")) (PStr (F"F")) (PStr (F"ga")) true false;
     ci_base_product := mk_base_product (PStr (F"Base")) (PStr (F"7")) (PStr (F"B")) (PStr (F"ga"));
     ci_variants := ex_forest |}.

Example ci_roundtrip_nonvacuous :
  ci_normal ex_ci /\ NoDup (forest_uids (ci_variants ex_ci)) /\ exists doc, dump_ci ex_ci = Ok doc.
Proof.
  split; [|split].
  - split; [|split].
    + exists (PStr (F"Fedora-22-20150522.n.0")), (PStr (F"nightly")), (PStr (F"20150522")), (PInt 0), PNone, false.
      split; [reflexivity|]. split; [left; reflexivity|reflexivity].
    + do 6 eexists. split; [reflexivity|]. do 4 eexists. reflexivity.
    + apply forest_normalb_ok. vm_compute. reflexivity.
  - apply nodupb_ok. vm_compute. reflexivity.
  - eexists. vm_compute. reflexivity.
Qed.

(* C08: the order in which top-level variants were added is not content *)
Theorem ser_variants_perm vs vs' : Permutation.Permutation vs vs' -> NoDup (map fst vs) -> ser_variants vs = ser_variants vs'.
Proof. intros Hp Hn. unfold ser_variants, validate_container. rewrite (sort_keys_perm vs vs' Hp Hn). reflexivity. Qed.
