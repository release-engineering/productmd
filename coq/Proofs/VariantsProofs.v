(* C11: VariantBase.add and get_variants on the heap model of Model/Variants.v; what the custom validators of
   composeinfo.Variant establish for an object serves the heap here and the written trees of C01 *)
From PM Require Import Model.Variants Proofs.Monad Proofs.ListLemmas Proofs.AssocLemmas Proofs.KeyedSort.

(* VariantBase.add sets the parent pointer before validate() runs (h1 is the heap the validators see) and restores it on
   refusal *)
Lemma variant_add_cases h c v vid :
  let h1 := if Nat.eqb c 0 then h else set_parent h v (Some c) in
  (exists e, variant_add h c v vid = (h, Err e)) \/
  validate_variant h1 v = Ok tt /\ existsb (Nat.eqb v) (ancestors (length h1) h1 c) = false /\
  (variant_add h c v vid = (h1, Ok tt) \/
   exists key, variant_add h c v vid = (set_children h1 c (vn_children (node h1 c) ++ [(key, v)]), Ok tt)).
Proof.
  intros h1. unfold variant_add. fold h1.
  destruct (validate_variant h1 v) as [[]|e1]; [|eauto].
  destruct (add_key h1 v vid) as [key|e2]; [|eauto].
  destruct (existsb _ _); [eauto|].
  destruct (assoc key _) as [ex|]; [destruct (Nat.eqb ex v)|]; eauto 6.
Qed.

Lemma variant_customs_present :
  assoc (F"_validate_uid") (validators_of (F"composeinfo.Variant")) = Some (VCustom (F"composeinfo.Variant._validate_uid")) /\
  assoc (F"_validate_parent_arch") (validators_of (F"composeinfo.Variant")) = Some (VCustom (F"composeinfo.Variant._validate_parent_arch")) /\
  assoc (F"_validate_variants") (validators_of (F"composeinfo.Variant")) = Some (VCustom (F"composeinfo.VariantBase._validate_variants")).
Proof. vm_compute. repeat split; reflexivity. Qed.

Lemma valid_custom ct cls o name q f :
  assoc name (validators_of cls) = Some (VCustom q) -> ct q = Some f -> validate_with ct cls o = Ok tt -> f o = Ok tt.
Proof.
  intros Ha Hq Hv. apply assoc_In in Ha. pose proof (iterM_all _ _ Hv _ Ha) as G. cbn [snd run_method] in G.
  rewrite Hq in G. exact G.
Qed.

Lemma valid_variant_customs o :
  validate_with customs_ci (F"composeinfo.Variant") o = Ok tt ->
  custom_variant_uid o = Ok tt /\ custom_parent_arch o = Ok tt /\ custom_children o = Ok tt.
Proof.
  intros Hv. destruct variant_customs_present as (H1 & H2 & H3).
  split; [exact (valid_custom _ _ _ _ _ _ H1 eq_refl Hv)|].
  split; [exact (valid_custom _ _ _ _ _ _ H2 eq_refl Hv)|exact (valid_custom _ _ _ _ _ _ H3 eq_refl Hv)].
Qed.

(* the validators read the context from pseudo-attributes appended to the object's own *)
Lemma getf_ctx_plain o ctx f : assoc f ctx = None -> getf (o ++ ctx) f = getf o f.
Proof. intros H. unfold getf. rewrite assoc_app, H. destruct (assoc f o); reflexivity. Qed.

Lemma getf_ctx_pseudo o ctx f : assoc f o = None -> getf (o ++ ctx) f = getf ctx f.
Proof. intros H. unfold getf. rewrite assoc_app, H. reflexivity. Qed.

Lemma getf_ctx_field o ctx f :
  (forall k v, In (k, v) ctx -> k <> f) -> assoc f o <> None -> getf (o ++ ctx) f = getf o f.
Proof.
  intros Hctx Hin. unfold getf. rewrite assoc_app. destruct (assoc f o); [reflexivity|congruence].
Qed.

Lemma custom_variant_uid_ok o :
  custom_variant_uid o = Ok tt -> getf o (F"_has_parent") = PBool true ->
  getf o (F"uid") = PStr (fmt_s (getf o (F"_parent_uid")) ++ c_dash :: fmt_s (getf o (F"id"))).
Proof.
  unfold custom_variant_uid. intros H Hp. rewrite Hp in H. destruct (getf o (F"uid")); try discriminate.
  apply guard_ok, str_eqb_eq in H. rewrite H. reflexivity.
Qed.

Lemma custom_parent_arch_ok o :
  custom_parent_arch o = Ok tt -> getf o (F"_has_parent") = PBool true ->
  exists mine theirs, getf o (F"arches") = PList mine /\ getf o (F"_parent_arches") = PList theirs /\
                      forallb (fun a => py_in a theirs) mine = true.
Proof.
  unfold custom_parent_arch. intros H Hp. rewrite Hp in H. destruct (getf o (F"arches")) as [| | | | |mine|]; try discriminate.
  destruct (getf o (F"_parent_arches")) as [| | | | |theirs|]; try discriminate. apply guard_ok in H. eauto.
Qed.

(* the one fact behind the edge invariant of the heap (C11) and the alignment of written trees (C01) *)
Lemma validated_under_parent o pu pa ch :
  assoc (F"_has_parent") o = None -> assoc (F"_parent_uid") o = None -> assoc (F"_parent_arches") o = None ->
  validate_with customs_ci (F"composeinfo.Variant")
    (o ++ [(F"_has_parent", PBool true); (F"_parent_uid", pu); (F"_parent_arches", pa); (F"_children", ch)]) = Ok tt ->
  getf o (F"uid") = PStr (fmt_s pu ++ c_dash :: fmt_s (getf o (F"id"))) /\
  exists mine theirs, getf o (F"arches") = PList mine /\ pa = PList theirs /\ forallb (fun a => py_in a theirs) mine = true.
Proof.
  intros N1 N2 N3 Hv. destruct (valid_variant_customs _ Hv) as (Hu & Ha & _).
  apply custom_variant_uid_ok in Hu; [|exact (getf_ctx_pseudo _ _ _ N1)].
  apply custom_parent_arch_ok in Ha; [|exact (getf_ctx_pseudo _ _ _ N1)].
  rewrite (getf_ctx_pseudo _ _ _ N2) in Hu. rewrite (getf_ctx_pseudo _ _ _ N3) in Ha.
  do 2 rewrite getf_ctx_plain in Hu by reflexivity. rewrite getf_ctx_plain in Ha by reflexivity. auto.
Qed.

Theorem variant_add_accepted_child h c v vid h' :
  variant_add h c v vid = (h', Ok tt) -> c <> O ->
  let h1 := set_parent h v (Some c) in
  validate_variant h1 v = Ok tt /\
  custom_variant_uid (variant_ctx h1 v) = Ok tt /\ custom_parent_arch (variant_ctx h1 v) = Ok tt /\
  ~ In v (ancestors (length h1) h1 c).
Proof.
  intros H Hc h1. pose proof (variant_add_cases h c v vid) as Hcases. cbv zeta in Hcases.
  rewrite (proj2 (Nat.eqb_neq c 0) Hc) in Hcases. fold h1 in Hcases.
  destruct Hcases as [(e & He)|(Hv & Ea & _)]; [congruence|].
  destruct (valid_variant_customs _ Hv) as (G1 & G2 & _). repeat split; try assumption.
  intros Hin. apply Bool.not_true_iff_false in Ea. apply Ea, existsb_exists. exists v. split; [exact Hin|apply Nat.eqb_refl].
Qed.

Lemma sort_by_uid_eq h l : sort_by_uid h l = sortl_by (uid_str h) true l.
Proof.
  assert (E : forall r l, insert_by_uid h r l = insert_by (uid_str h) true r l).
  { intros r l0. induction l0 as [|y l0 IH]; cbn [insert_by_uid insert_by before]; [|rewrite IH]; reflexivity. }
  unfold sort_by_uid, sortl_by. generalize (@nil nat). induction l as [|r l IH]; intros acc; cbn [fold_left]; [reflexivity|].
  rewrite E. apply IH.
Qed.

Theorem get_variants_sound fuel h arch types :
  mem_str (F"self") types = false ->
  forall c recursive r, In r (get_variants fuel h c arch types recursive) ->
  type_matches h r types = true /\ arch_matches h r arch = true.
Proof.
  intros Hs.
  assert (Hsub : filter (fun t => negb (str_eqb t (F"self"))) types = types).
  { apply filter_all. intros t Ht. destruct (str_eqb_spec t (F"self")) as [->|_]; [|reflexivity].
    apply mem_str_In in Ht. congruence. }
  induction fuel as [|f IH]; intros c recursive r Hin; cbn [get_variants] in Hin; [destruct Hin|].
  rewrite Hs, Hsub in Hin. cbn [app] in Hin. rewrite sort_by_uid_eq in Hin. apply sortl_by_In in Hin.
  apply in_flat_map in Hin. destruct Hin as (kv & _ & Hin).
  destruct (type_matches h (snd kv) types && arch_matches h (snd kv) arch) eqn:E; [|destruct Hin].
  apply andb_true_iff in E. destruct Hin as [<-|Hin]; [exact E|].
  destruct recursive; [|destruct Hin]. exact (IH _ _ _ Hin).
Qed.
