(* association lists keyed by strings ([assoc], [assoc_set], [upd], [keys] of Base/PyVal.v), and maps of maps ([sub]) *)
From PM Require Import Base.PyVal.
From Coq Require Import Permutation.

Lemma assoc_app {A} f (l1 l2 : list (str * A)) :
  assoc f (l1 ++ l2) = match assoc f l1 with Some v => Some v | None => assoc f l2 end.
Proof. induction l1 as [|[k v] l1 IH]; cbn [app assoc]; [reflexivity|]. destruct (str_eqb f k); [reflexivity|exact IH]. Qed.

Lemma assoc_last {A} k (v : A) l : assoc k l = None -> assoc k (l ++ [(k, v)]) = Some v.
Proof. induction l as [|[k1 v1] l IH]; cbn [assoc app]; [rewrite str_eqb_refl; reflexivity|]. destruct (str_eqb k k1); [discriminate|exact IH]. Qed.

Lemma assoc_tabulate {A} (g : str -> A) k l : assoc k (map (fun f => (f, g f)) l) = if mem_str k l then Some (g k) else None.
Proof.
  induction l as [|x l IH]; [reflexivity|]. cbn [map assoc mem_str].
  destruct (str_eqb_spec k x) as [->|_]; [reflexivity|exact IH].
Qed.

Lemma assoc_in_nodup {A} k (v : A) (l : list (str * A)) : NoDup (map fst l) -> In (k, v) l -> assoc k l = Some v.
Proof.
  induction l as [|[k0 v0] l IH]; intros Hn []; cbn [assoc].
  - injection H as -> ->. rewrite str_eqb_refl. reflexivity.
  - cbn [map fst] in Hn. inversion Hn as [|? ? Hx Hr]; subst.
    destruct (str_eqb_spec k k0) as [->|_]; [|exact (IH Hr H)].
    exfalso. apply Hx. exact (in_map fst _ _ H).
Qed.

Lemma assoc_set_keys {A} k (v v0 : A) l : assoc k l = Some v0 -> map fst (assoc_set k v l) = map fst l.
Proof.
  induction l as [|[k1 v1] l IH]; cbn [map fst assoc assoc_set]; [discriminate|].
  destruct (str_eqb_spec k k1) as [->|_]; [reflexivity|]. intros H. cbn [map fst]. rewrite (IH H). reflexivity.
Qed.

Lemma assoc_set_new {A} k (v : A) l : ~ In k (map fst l) -> assoc_set k v l = l ++ [(k, v)].
Proof.
  induction l as [|[k1 v1] l IH]; cbn [map fst assoc_set app In]; [reflexivity|]. intros Hn.
  destruct (str_eqb_spec k k1) as [->|_]; [tauto|]. rewrite IH by tauto. reflexivity.
Qed.

Lemma assoc_set_app_r {A} k (v : A) l1 l2 : assoc k l1 = None -> assoc_set k v (l1 ++ l2) = l1 ++ assoc_set k v l2.
Proof.
  induction l1 as [|[k1 v1] l1 IH]; cbn [assoc assoc_set app]; [reflexivity|].
  destruct (str_eqb k k1); [discriminate|]. intros H. rewrite (IH H). reflexivity.
Qed.

Lemma assoc_upd {A} k k' (f : option A -> A) l : assoc k' (upd k f l) = if str_eqb k k' then Some (f (assoc k l)) else assoc k' l.
Proof.
  destruct (str_eqb_spec k k') as [<-|Hn]; induction l as [|[k2 v] l IH]; cbn [upd assoc].
  - rewrite str_eqb_refl. reflexivity.
  - destruct (str_eqb k k2) eqn:E; cbn [assoc]; rewrite E; [reflexivity|exact IH].
  - destruct (str_eqb_spec k' k) as [->|_]; [congruence|reflexivity].
  - destruct (str_eqb_spec k k2) as [->|_]; cbn [assoc]; [destruct (str_eqb_spec k' k2) as [->|_]; [congruence|reflexivity]|].
    destruct (str_eqb k' k2); [reflexivity|exact IH].
Qed.

Lemma assoc_upd_same {A} k (f : option A -> A) l : assoc k (upd k f l) = Some (f (assoc k l)).
Proof. rewrite assoc_upd, str_eqb_refl. reflexivity. Qed.

Lemma assoc_upd_other {A} k k' (f : option A -> A) l : k <> k' -> assoc k' (upd k f l) = assoc k' l.
Proof. intros Hn. rewrite assoc_upd. apply str_eqb_neq in Hn. rewrite Hn. reflexivity. Qed.

Lemma in_upd {A} k (f : option A -> A) l k' v' : In (k', v') (upd k f l) -> (k' = k /\ v' = f (assoc k l)) \/ In (k', v') l.
Proof.
  induction l as [|[k2 v2] l IH]; cbn [upd assoc].
  - intros [H|[]]. injection H as <- <-. left. auto.
  - destruct (str_eqb_spec k k2) as [->|_]; (intros [H|H]; [|]).
    + injection H as <- <-. left. auto.
    + right. right. exact H.
    + right. left. exact H.
    + destruct (IH H) as [H1|H1]; [left; exact H1|right; right; exact H1].
Qed.

Lemma upd_app {A} k (f : option A -> A) l1 l2 : assoc k l1 = None -> upd k f (l1 ++ l2) = l1 ++ upd k f l2.
Proof.
  induction l1 as [|[k' v] l1 IH]; cbn [upd assoc app]; [reflexivity|].
  destruct (str_eqb k k'); [discriminate|]. intros H. rewrite (IH H). reflexivity.
Qed.

Lemma keys_upd {A} k (f : option A -> A) l : keys (upd k f l) = match assoc k l with Some _ => keys l | None => keys l ++ [k] end.
Proof.
  induction l as [|[k' v] l IH]; cbn [upd assoc keys map fst app]; [reflexivity|].
  destruct (str_eqb k k'); cbn [keys map fst]; [reflexivity|].
  fold (keys (upd k f l)). fold (keys l). rewrite IH. destruct (assoc k l); reflexivity.
Qed.

Lemma NoDup_keys_fresh {A} k (l : list (str * A)) : assoc k l = None -> NoDup (keys l) -> NoDup (keys l ++ [k]).
Proof. intros E H. apply (Permutation_NoDup (Permutation_cons_append _ _)). constructor; [apply assoc_None; exact E|exact H]. Qed.

Lemma NoDup_keys_upd {A} k (f : option A -> A) l : NoDup (keys l) -> NoDup (keys (upd k f l)).
Proof. intros H. rewrite keys_upd. destruct (assoc k l) eqn:E; [exact H|exact (NoDup_keys_fresh k l E H)]. Qed.

Definition sub {A} (m : list (str * list A)) (v : str) : list A := dflt [] (assoc v m).

Lemma sub_upd {A} (m : list (str * list A)) v v' f : sub (upd v f m) v' = if str_eqb v v' then f (assoc v m) else sub m v'.
Proof. unfold sub. rewrite assoc_upd. destruct (str_eqb v v'); reflexivity. Qed.

Lemma in_sub {A} (m : list (str * list A)) v x : In x (sub m v) -> exists inner, In (v, inner) m /\ In x inner.
Proof. unfold sub. destruct (assoc v m) as [inner|] eqn:E; [|intros []]. intros H. exists inner. split; [exact (assoc_In _ _ _ E)|exact H]. Qed.

Lemma fold_upd_last {A X} (d : A) (h : A -> X -> A) k xs : forall pre y, assoc k pre = None ->
  fold_left (fun l x => upd k (fun o => h (dflt d o) x) l) xs (pre ++ [(k, y)]) = pre ++ [(k, fold_left h xs y)].
Proof.
  induction xs as [|x xs IH]; intros pre y Hk; [reflexivity|]. cbn [fold_left].
  rewrite upd_app by exact Hk. cbn [upd]. rewrite str_eqb_refl. exact (IH pre _ Hk).
Qed.

Lemma fold_upd_fresh {A X} (d : A) (h : A -> X -> A) k xs pre : assoc k pre = None -> xs <> [] ->
  fold_left (fun l x => upd k (fun o => h (dflt d o) x) l) xs pre = pre ++ [(k, fold_left h xs d)].
Proof.
  intros Hk Hne. destruct xs as [|x xs]; [congruence|]. cbn [fold_left].
  rewrite <- (app_nil_r pre) at 1. rewrite upd_app by exact Hk. exact (fold_upd_last d h k xs pre _ Hk).
Qed.

(* filing the items of each group of [todo] one by one under the group's key, onto a map without those keys, rebuilds the groups *)
Lemma fold_groups {A X} (d : A) (h : A -> X -> A) (items : A -> list X) todo : forall done,
  NoDup (keys todo) -> (forall k a, In (k, a) todo -> items a <> [] /\ fold_left h (items a) d = a) ->
  (forall k, In k (keys todo) -> assoc k done = None) ->
  fold_left (fun l ka => fold_left (fun l x => upd (fst ka) (fun o => h (dflt d o) x) l) (items (snd ka)) l) todo done = done ++ todo.
Proof.
  induction todo as [|[k a] todo IH]; intros done Hnd Hit Hfresh; cbn [fold_left fst snd]; [symmetry; apply app_nil_r|].
  destruct (Hit k a (or_introl eq_refl)) as [Hne Ha]. inversion Hnd as [|? ? Hk Hnd']; subst.
  rewrite fold_upd_fresh, Ha by (auto; apply Hfresh; left; reflexivity).
  rewrite IH; [rewrite <- app_assoc; reflexivity|exact Hnd'|intros k' a' Hin; apply (Hit k'); right; exact Hin|].
  intros k' Hk'. rewrite assoc_app, Hfresh by (right; exact Hk'). cbn [assoc].
  destruct (str_eqb_spec k' k) as [->|_]; [contradiction|reflexivity].
Qed.

Lemma NoDup_keys_flat_map {A B} (f : str * A -> list (str * B)) l :
  (forall x, f x = [] \/ exists b, f x = [(fst x, b)]) -> NoDup (keys l) -> NoDup (keys (flat_map f l)).
Proof.
  intros Hf. assert (Hin : forall l k, In k (keys (flat_map f l)) -> In k (keys l)).
  { intros l0 k H. apply in_map_iff in H. destruct H as ([k' b] & <- & H). apply in_flat_map in H. destruct H as (x & Hx & H).
    destruct (Hf x) as [E|[b' E]]; rewrite E in H; [destruct H|]. destruct H as [H|[]]. injection H as <- _. exact (in_map fst l0 x Hx). }
  induction l as [|x l IH]; intros H; [constructor|]. inversion H as [|? ? Hx Hl]; subst. cbn [flat_map].
  destruct (Hf x) as [->|[b ->]]; [exact (IH Hl)|]. cbn [app keys map fst]. constructor; [|exact (IH Hl)].
  intros Hk. exact (Hx (Hin l _ Hk)).
Qed.

(* no repetition in a list of literal names, decided by evaluation *)
Fixpoint distinct (l : list str) : bool := match l with [] => true | x :: l' => negb (mem_str x l') && distinct l' end.

Lemma distinct_nodup l : distinct l = true -> NoDup l.
Proof.
  induction l as [|x l IH]; cbn [distinct]; [constructor|]. intros H. apply andb_true_iff in H. destruct H as [Hx Hl].
  constructor; [|exact (IH Hl)]. intros Hin. apply mem_str_In in Hin. rewrite Hin in Hx. discriminate.
Qed.

Lemma forallb_mem_incl l1 l2 : forallb (fun a => mem_str a l2) l1 = true -> incl l1 l2.
Proof. intros H a Ha. apply mem_str_In. exact (proj1 (forallb_forall _ _) H a Ha). Qed.
