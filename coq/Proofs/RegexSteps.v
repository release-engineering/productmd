(* C19: the instrumented matcher computes the same result as [m], in at most [work] steps *)
From PM Require Import Base.RegexCost Proofs.RegexCostProofs.
Open Scope nat_scope.

(* [sim k k' K]: the counting continuation k returns what the plain k' returns, in at most K s steps from s.
   Stated for a pair of continuations, so that the ones built on the way need only be related again, not equal. *)
Definition sim (k : skont) (k' : kont) (K : str -> nat) : Prop :=
  forall s p c, snd (k s p c) = k' s p c /\ fst (k s p c) <= K s.

Lemma tick_spec {X} (p : nat * X) x n : snd p = x /\ fst p <= n -> snd (let '(n, x) := p in (S n, x)) = x /\ fst (let '(n, x) := p in (S n, x)) <= S n.
Proof. destruct p. cbn [fst snd]. intros [-> H]. split; [reflexivity|apply le_n_S, H]. Qed.

Lemma star_ms_spec body body' w f :
  (forall k k' K, sim k k' K -> sim (fun s p c => body s p c k) (fun s p c => body' s p c k') (fun s => w s + sum_map K (f s))) ->
  forall fuel k k' K, sim k k' K ->
  sim (fun s p c => star_ms body fuel s p c k) (fun s p c => star_m body' fuel s p c k') (fun s => star_work w f fuel s + sum_map K (star_exits f fuel s)).
Proof.
  intros Hb fuel k k' K Hk. induction fuel as [|n IH]; intros s pos c; cbn [star_ms star_m star_work star_exits].
  - rewrite sum_map_cons, sum_map_nil. destruct (Hk s pos c). split; [assumption|lia].
  - (* the continuation handed to the body costs, from s', the rest of the loop from s' *)
    destruct (Hb (fun s' pos' c' => if Nat.ltb (length s') (length s) then star_ms body n s' pos' c' k else (0, None))
                 (fun s' pos' c' => if Nat.ltb (length s') (length s) then star_m body' n s' pos' c' k' else None)
                 (fun s' => (if Nat.ltb (length s') (length s) then star_work w f n s' else 0) +
                            sum_map K (if Nat.ltb (length s') (length s) then star_exits f n s' else [])) ) with s pos c as [E L].
    { intros s' p' c'. destruct (Nat.ltb (length s') (length s)); [apply IH|split; [reflexivity|apply Nat.le_0_l]]. }
    rewrite sum_map_add, <- sum_map_flat_map in L. rewrite sum_map_app, sum_map_cons, sum_map_nil, <- E.
    destruct (body s pos c _) as [n1 [r|]]; cbn [fst snd] in *; unfold str in *; [split; [reflexivity|lia]|].
    destruct (Hk s pos c) as [Ek Lk]. destruct (k s pos c) as [n2 r2]. cbn [fst snd] in *. split; [exact Ek|lia].
Qed.

Theorem ms_spec r : forall k k' K, sim k k' K ->
  sim (fun s p c => ms r s p c k) (fun s p c => m r s p c k') (fun s => work r s + sum_map K (exits r s)).
Proof.
  induction r as [|cs|a IHa b IHb|a IHa b IHb|a IHa| | |n a IHa|]; intros k k' K Hk s pos c; cbn [ms m work exits].
  - rewrite sum_map_cons, sum_map_nil, Nat.add_0_r. apply tick_spec, Hk.
  - destruct s as [|y s']; [|destruct (cs_mem y cs)]; try (split; [reflexivity|cbn; lia]).
    rewrite sum_map_cons, sum_map_nil, Nat.add_0_r. apply tick_spec, Hk.
  - rewrite sum_map_flat_map, <- Nat.add_assoc, <- sum_map_add. apply tick_spec, (IHa _ _ _ (IHb k k' K Hk)).
  - destruct (IHa k k' K Hk s pos c) as [Ea La], (IHb k k' K Hk s pos c) as [Eb Lb]. rewrite sum_map_app, <- Ea, <- Eb.
    destruct (ms a s pos c k) as [n1 [x|]]; cbn [fst snd] in *; [split; [reflexivity|lia]|].
    destruct (ms b s pos c k) as [n2 r2]. cbn [fst snd] in *. split; [reflexivity|lia].
  - apply (star_ms_spec (ms a) (m a) (work a) (exits a) IHa _ k k' K Hk).
  - destruct (Nat.eqb pos 0); [|split; [reflexivity|cbn; lia]].
    rewrite sum_map_cons, sum_map_nil, Nat.add_0_r. apply tick_spec, Hk.
  - destruct s as [|y [|z s']]; [|destruct (N.eqb y 10)|]; try (split; [reflexivity|cbn; lia]);
      rewrite sum_map_cons, sum_map_nil, Nat.add_0_r; apply tick_spec, Hk.
  - apply tick_spec, (IHa (fun s' p' c' => k s' p' (cap_set n (pos, p') c')) (fun s' p' c' => k' s' p' (cap_set n (pos, p') c')) K).
    intros s' p' c'. apply Hk.
  - split; [reflexivity|cbn; lia].
Qed.

Corollary match_spec r s : snd (ms r s 0 [] (fun _ _ c => (0, Some c))) = re_match r s /\ match_steps r s <= work r s.
Proof.
  destruct (ms_spec r (fun _ _ c => (0, Some c)) (fun _ _ c => Some c) (fun _ => 0)) with s 0 ([] : caps) as [E L];
    [intros s' p c; split; [reflexivity|apply Nat.le_refl]|].
  rewrite sum_map_zero, Nat.add_0_r in L. exact (conj E L).
Qed.
