(* C10: no source / unknown architecture key: images add histories, one step of rpms_add (Props/C10.v does the rest) *)
From PM Require Import Base.PyVal Base.Obj Model.Common Model.Images Model.Manifests Proofs.ListLemmas
  Proofs.AssocLemmas Proofs.ManifestsProofs Proofs.ImagesProofs Gen.Tables.

Definition arch_ok (a : str) : bool := mem_str a RPM_ARCHES && negb (is_src_arch a).

Definition keys2_ok {X} (m : list (str * list (str * X))) : Prop :=
  forall v arches, In (v, arches) m -> forall a x, In (a, x) arches -> arch_ok a = true.

Lemma keys2_ok_nil {X} : keys2_ok (@nil (str * list (str * X))).
Proof. intros v arches []. Qed.

Lemma keys2_ok_upd {X} (m : list (str * list (str * X))) v a (g : option X -> X) :
  keys2_ok m -> arch_ok a = true ->
  keys2_ok (upd v (fun o => upd a g (dflt [] o)) m).
Proof.
  intros Hm Ha v' arches' Hin a' x' Hin'.
  apply in_upd in Hin. destruct Hin as [[-> ->]|Hin]; [|exact (Hm v' arches' Hin a' x' Hin')].
  apply in_upd in Hin'. destruct Hin' as [[-> _]|Hin']; [exact Ha|].
  destruct (in_sub m v _ Hin') as (arches & Hv & Hin). exact (Hm v arches Hv a' x' Hin).
Qed.

Theorem images_add_arch_ok vt c v a img c' :
  keys2_ok c -> images_add vt c v a img = Ok c' -> keys2_ok c'.
Proof.
  intros Hc H. apply images_add_spec in H. destruct H as (G1 & G2 & _ & ->).
  apply keys2_ok_upd; [exact Hc|]. unfold arch_ok. rewrite G1, G2. reflexivity.
Qed.

Theorem images_reach_arch_ok vt ops : keys2_ok (fold_left (apply_add vt) ops []).
Proof.
  apply fold_left_inv; [|exact keys2_ok_nil].
  intros c op _ Hc. apply apply_add_pres; [|exact Hc]. intros c'. exact (images_add_arch_ok _ _ _ _ _ _ Hc).
Qed.

Lemma in_cell_after_add vt c v a img c' :
  images_add vt c v a img = Ok c' ->
  exists arches imgs, assoc v c' = Some arches /\ assoc a arches = Some imgs /\ In (fst img) (map fst imgs).
Proof.
  intros H. apply images_add_spec in H. destruct H as (_ & _ & _ & ->). unfold place.
  eexists. eexists. rewrite assoc_upd_same. split; [reflexivity|]. rewrite assoc_upd_same. split; [reflexivity|apply set_add_in].
Qed.

Theorem rpms_add_arch_ok m v a n p sg c sr m' :
  keys2_ok m -> rpms_add m v a n p sg c sr = Ok m' -> keys2_ok m'.
Proof.
  intros Hm H. destruct (rpms_add_shape _ _ _ _ _ _ _ _ _ H) as (nc & nd & sc & _ & _ & Hp & ->).
  apply keys2_ok_upd; [exact Hm|]. unfold rpms_pre in Hp. rewrite !andb_true_iff in Hp.
  unfold arch_ok. apply andb_true_iff, Hp.
Qed.

Definition apply_rpms_add (m : rpms_t) (op : str * str * str * str * option str * str * option str) : rpms_t :=
  let '(v, a, n, p, sg, c, sr) := op in
  match rpms_add m v a n p sg c sr with Ok m' => m' | Err _ => m end.

