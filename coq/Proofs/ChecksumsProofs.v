(* C16: recorded checksums are never replaced, are filed under the normalised path, and a bare digest is typed by its length *)
From PM Require Import Base.PyVal Base.Obj Model.Common Model.Checksums Model.TreeInfo Proofs.AssocLemmas.

Theorem add_checksum_stable cs ty value cs' r t v :
  image_add_checksum cs ty value = Ok (cs', r) -> assoc t cs = Some v -> assoc t cs' = Some v.
Proof.
  unfold image_add_checksum. destruct (assoc ty cs) as [ex|] eqn:E.
  - destruct (truthy value && negb (py_eq value ex)); [discriminate|]. intros H; injection H as <- _. auto.
  - intros H; injection H as <- _. intros Ht. rewrite assoc_app, Ht. reflexivity.
Qed.

Theorem add_checksum_conflict cs ty value ex :
  assoc ty cs = Some ex -> truthy value = true -> py_eq value ex = false -> image_add_checksum cs ty value = Err ValueError.
Proof. intros E Ht Hn. unfold image_add_checksum. rewrite E, Ht, Hn. reflexivity. Qed.

Theorem add_checksum_returns_recorded cs ty value cs' r :
  image_add_checksum cs ty value = Ok (cs', r) -> assoc ty cs' = Some r.
Proof.
  unfold image_add_checksum. destruct (assoc ty cs) as [ex|] eqn:E.
  - destruct (truthy value && negb (py_eq value ex)); [discriminate|]. intros H; injection H as <- <-. exact E.
  - intros H; injection H as <- <-. rewrite assoc_app, E. cbn [assoc]. rewrite str_eqb_refl. reflexivity.
Qed.

Theorem checksums_add_refuses_absolute cs p ty v : checksums_add cs (c_slash :: p) ty v = Err ValueError.
Proof. reflexivity. Qed.

Theorem checksums_add_records cs p ty v cs' :
  checksums_add cs p ty v = Ok cs' -> assoc (normpath p) cs' = Some (ty, v) /\
  forall q, q <> normpath p -> assoc q cs' = assoc q cs.
Proof.
  unfold checksums_add. destruct (startswith p [c_slash]); cbn [negb guard bind]; [discriminate|].
  intros H; injection H as <-. split; [apply assoc_set_same|]. intros q Hq. apply assoc_set_other. congruence.
Qed.

Theorem typed_checksum_bare v :
  ~ In c_colon v ->
  typed_checksum v =
    if Nat.eqb (length v) 32 then Ok (PStr (lit "md5"), PStr v)
    else if Nat.eqb (length v) 40 then Ok (PStr (lit "sha1"), PStr v)
    else if Nat.eqb (length v) 64 then Ok (PStr (lit "sha256"), PStr v)
    else Err ValueError.
Proof. intros H. unfold typed_checksum. apply memc_false in H. rewrite H. reflexivity. Qed.

Example normpath_examples :
  normpath (lit "./images//boot.iso") = lit "images/boot.iso" /\
  normpath (lit "x/../images/./boot.iso") = lit "images/boot.iso" /\
  normpath (lit "../a") = lit "../a" /\ normpath (lit "a/..") = lit ".".
Proof. vm_compute. repeat split; reflexivity. Qed.
