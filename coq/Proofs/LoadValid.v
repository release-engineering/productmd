(* C07, C09: what a successful load returns satisfies what writing enforces: images manifests (every image went through add,
   validated), then composeinfo (every variant validated under its parent: tree_valid, which the C01 writer lemma uses too) *)
From PM Require Import Base.PyVal Base.Obj Model.Common Model.Images Model.ComposeInfo Model.Variants Proofs.Monad Proofs.ListLemmas Proofs.CommonProofs
  Proofs.ImagesProofs Proofs.ImagesManifest Gen.Tables.

Definition cells_valid (c : cells_t) : Prop := forall x, In x (all_images c) -> validate image_cls (snd x) = Ok tt.

(* the readers build an object field by field and return it only after validating it; the counts are the binds of the
   model's reader in front of that last check *)
Lemma deser_image_valid vt d o : deser_image vt d = Ok o -> validate image_cls o = Ok tt.
Proof. unfold deser_image. do 19 (apply bind_elim; intros ?). apply checked_ok. Qed.

Lemma deser_compose_valid vt p c : deser_compose vt p = Ok c -> validate compose_cls c = Ok tt.
Proof.
  unfold deser_compose. do 4 (apply bind_elim; intros ?). apply bind_elim. intros [[date ty'] respin].
  apply bind_elim. intros final0. apply checked_ok.
Qed.

(* every image of a loaded manifest went through add, at the version the header gives, after deser_image validated it:
   what such adds preserve from the empty manifest on holds of the loaded cells *)
Section Added.
  Variables (P : cells_t -> Prop) (vt : N * N).
  Hypothesis Hadd : forall c v a n d o c', P c -> deser_image vt d = Ok o -> images_add vt c v a (n, o) = Ok c' -> P c'.

  Lemma read_image_pres ks v a s d s' : P (snd s) -> read_image vt ks v a s d = Ok s' -> P (snd s').
  Proof.
    destruct s as [n c]. unfold read_image. intros Hc H. inv_bind H as o Ho. inv_bind H as c' Hc'. apply Ok_inj in H. subst s'.
    revert Hc'. apply add_loaded_pres; [|exact Hc]. intros c0 a0 c1 Hc0. exact (Hadd _ _ _ _ _ _ _ Hc0 Ho).
  Qed.

  Lemma read_cell_pres ks v s ai s' : P (snd s) -> read_cell vt ks v s ai = Ok s' -> P (snd s').
  Proof.
    unfold read_cell. intros Hs H. destruct (snd ai) as [| | | |x|il|kv]; try discriminate.
    - destruct x; [apply Ok_inj in H; subst s'; exact Hs|discriminate].
    - revert H. apply (fold_bind_inv (fun s => P (snd s))); [|exact Hs]. intros s0 d s1. apply read_image_pres.
    - destruct kv; [apply Ok_inj in H; subst s'; exact Hs|discriminate].
  Qed.

  Lemma read_variant_pres s va s' : P (snd s) -> read_variant vt s va = Ok s' -> P (snd s').
  Proof.
    unfold read_variant. intros Hs H. destruct (snd va) as [| | | |x|l|arches]; try discriminate.
    - destruct x; [apply Ok_inj in H; subst s'; exact Hs|discriminate].
    - destruct l; [apply Ok_inj in H; subst s'; exact Hs|discriminate].
    - revert H. apply (fold_bind_inv (fun s => P (snd s))); [|exact Hs]. intros s0 ai s1. apply read_cell_pres.
  Qed.
End Added.

(* the last clause is induction over the adds that built the cells *)
Lemma load_images_ind doc st :
  load_images doc = Ok st ->
  exists hv payload, deser_header images_mtype doc = Ok hv /\ deser_compose (snd hv) payload = Ok (im_compose st) /\
    forall P : cells_t -> Prop, P [] ->
      (forall c v a n d o c', P c -> deser_image (snd hv) d = Ok o -> images_add (snd hv) c v a (n, o) = Ok c' -> P c') ->
      P (im_cells st).
Proof.
  unfold load_images. intros H0. inv_bind H0 as st0 H. inv_bind H0 as u Hu. apply Ok_inj in H0. subst st0.
  rewrite deser_images_eq in H. inv_bind H as hv Hh. cbv zeta in H.
  inv_bind H as payload Hp. inv_bind H as compose Hc. inv_bind H as imgs Hi. exists hv, payload. split; [exact Hh|].
  destruct imgs as [| | | |s|l|variants]; try discriminate.
  - destruct s; [|discriminate]. apply Ok_inj in H. subst st. split; [exact Hc|]. intros P H0 _. exact H0.
  - destruct l; [|discriminate]. apply Ok_inj in H. subst st. split; [exact Hc|]. intros P H0 _. exact H0.
  - inv_bind H as cells Hf. apply Ok_inj in H. subst st. split; [exact Hc|]. intros P H0 Hadd. cbn [im_cells].
    revert Hf. apply (fold_bind_inv (fun s => P (snd s))); [|exact H0]. intros s0 va s1. exact (read_variant_pres P _ Hadd s0 va s1).
Qed.

Theorem load_images_valid doc st :
  load_images doc = Ok st -> cells_valid (im_cells st) /\ validate compose_cls (im_compose st) = Ok tt.
Proof.
  intros H. destruct (load_images_ind _ _ H) as (hv & payload & _ & Hc & Hcells). split; [|exact (deser_compose_valid _ _ _ Hc)].
  apply Hcells; [intros x []|]. intros c v a n d o c' Hv Ho Ha.
  exact (images_add_all (fun x => validate image_cls (snd x) = Ok tt) _ _ _ _ _ _ Ha Hv (deser_image_valid _ _ _ Ho)).
Qed.

Fixpoint tree_valid (parent : option (pyval * pyval)) (t : vtree) : Prop :=
  match t with
  | VT f paths rel children =>
      validate_tree_node parent t = Ok tt /\
      (fix all (cs : list (str * vtree)) : Prop :=
         match cs with
         | [] => True
         | (_, c) :: cs' => tree_valid (Some (getf f (F"uid"), getf f (F"arches"))) c /\ all cs'
         end) children
  end.

Definition children_valid (me : option (pyval * pyval)) (cs : list (str * vtree)) : Prop :=
  forall k c, In (k, c) cs -> tree_valid me c.

Lemma tree_valid_unfold parent f paths rel children :
  tree_valid parent (VT f paths rel children) <->
  validate_tree_node parent (VT f paths rel children) = Ok tt /\
  children_valid (Some (getf f (F"uid"), getf f (F"arches"))) children.
Proof. cbn [tree_valid]. rewrite fix_all_iff. reflexivity. Qed.

(* the loop body common to deser_variant and deser_variants (Variants.add), with its three calls abstracted *)
Lemma add_child_valid (P : vtree -> Prop) (D : result vtree) (V : vtree -> result unit) (K : vtree -> result str) cs cs' :
  (do c <- D; check V c; do k <- K c; match assoc k cs with Some _ => Err ValueError | None => Ok (cs ++ [(k, c)]) end) = Ok cs' ->
  (forall c, D = Ok c -> P c) -> (forall k c, In (k, c) cs -> P c) -> forall k c, In (k, c) cs' -> P c.
Proof.
  intros H HD Hcs. inv_bind H as c Hc. inv_bind H as u Hu. inv_bind H as ck Hk.
  destruct (assoc ck cs); [discriminate|]. apply Ok_inj in H. subst cs'.
  intros k c' Hin. apply in_app_or in Hin. destruct Hin as [Hin|[E|[]]]; [exact (Hcs k c' Hin)|].
  injection E as _ <-. exact (HD c Hc).
Qed.

Lemma deser_variant_valid fuel : forall vt all parent key t,
  deser_variant fuel vt all parent key = Ok t -> tree_valid parent t.
Proof.
  induction fuel as [|fuel IH]; intros vt all parent key t; cbn [deser_variant]; [discriminate|].
  do 11 (apply bind_elim; intros ?). intros H. inv_bind H as children Hch. inv_bind H as u Hv. apply Ok_inj in H. subst t.
  apply tree_valid_unfold. split; [exact (unit_ok _ _ Hv)|].
  revert Hch. apply fold_bind_inv; [|intros k c []].
  intros cs ck cs' Hcs Hs. exact (add_child_valid _ _ _ _ _ _ Hs (IH _ _ _ _) Hcs).
Qed.

Lemma deser_release_valid vt d r : deser_release vt d = Ok r -> validate release_cls r = Ok tt.
Proof. unfold deser_release. do 8 (apply bind_elim; intros ?). apply checked_ok. Qed.

Lemma deser_base_product_valid d r : deser_base_product d = Ok r -> validate bp_cls r = Ok tt.
Proof. unfold deser_base_product. do 5 (apply bind_elim; intros ?). apply checked_ok. Qed.

Theorem load_ci_valid doc x :
  load_ci doc = Ok x ->
  validate compose_cls (ci_compose x) = Ok tt /\ validate release_cls (ci_release x) = Ok tt /\
  (truthy (getf (ci_release x) (F"is_layered")) = true -> validate bp_cls (ci_base_product x) = Ok tt) /\
  children_valid None (ci_variants x).
Proof.
  unfold load_ci. intros H. inv_bind H as x0 Hd. inv_bind H as u Hu. apply Ok_inj in H. subst x0.
  unfold deser_ci in Hd. inv_bind Hd as hv Hh. cbv zeta in Hd. inv_bind Hd as payload Hp.
  inv_bind Hd as c Hc. inv_bind Hd as r Hr. inv_bind Hd as bp Hbp. inv_bind Hd as vs Hvs. apply Ok_inj in Hd. subst x.
  cbn [ci_compose ci_release ci_base_product ci_variants].
  split; [exact (deser_compose_valid _ _ _ Hc)|]. split; [exact (deser_release_valid _ _ _ Hr)|]. split.
  - intros Hl. rewrite Hl in Hbp. exact (deser_base_product_valid _ _ Hbp).
  - unfold deser_variants in Hvs. inv_bind Hvs as sec Hsec. destruct sec as [| | | | | |all]; try discriminate.
    inv_bind Hvs as child_uids Hcu. revert Hvs. apply fold_bind_inv; [|intros k t []].
    intros vs0 k vs' Hvs0 Hs. exact (add_child_valid _ _ _ _ _ _ Hs (deser_variant_valid _ _ _ _ _) Hvs0).
Qed.
