(* C13: nvra_roundtrip_gen for the alphabet of the property and the regenerated arch table *)
From PM Require Import Base.PyVal Model.Nvra Proofs.ListLemmas Proofs.NvraProofs Gen.Tables.

(* The property's alphabet: letters, digits and . _ + - (46 95 43 45) in names; . _ + ~ ^ (46 95 43 126 94) in versions and releases *)
Definition name_char (c : chr) : bool :=
  is_lower c || is_upper c || is_digit c || N.eqb c 46 || N.eqb c 95 || N.eqb c 43 || N.eqb c 45.
Definition vr_char (c : chr) : bool :=
  is_lower c || is_upper c || is_digit c || N.eqb c 46 || N.eqb c 95 || N.eqb c 43 || N.eqb c 126 || N.eqb c 94.

Definition legal_dir (dir : str) : Prop := (dir = [] \/ exists d, dir = d ++ [c_slash]) /\ ~ In c_nl dir.
Definition legal_sfx (sfx : str) : Prop := sfx = [] \/ sfx = dot_rpm.

Definition arch_ok (a : str) : bool :=
  negb (memc c_dot a) && negb (memc c_slash a) && negb (memc c_nl a) && negb (str_eqb a (lit "rpm")).

(* obligation on the regenerated table *)
Lemma arches_ok : forallb arch_ok RPM_ARCHES = true.
Proof. vm_compute. reflexivity. Qed.

Lemma c13_roundtrip dir name eo version release arch sfx :
  legal_dir dir -> legal_sfx sfx ->
  forallb name_char name = true -> forallb vr_char version = true -> forallb vr_char release = true ->
  In arch RPM_ARCHES ->
  parse_nvra (dir ++ fmt name eo version release arch ++ sfx) =
  Ok {| n_name := name; n_epoch := epoch_of eo; n_version := version; n_release := release; n_arch := arch |}.
Proof.
  intros [Hd1 Hd2] Hs Hn Hv Hr Ha.
  pose proof arches_ok as Hok. rewrite forallb_forall in Hok. specialize (Hok _ Ha).
  unfold arch_ok in Hok. rewrite !andb_true_iff, !negb_true_iff in Hok.
  destruct Hok as [[[A1 A2] A3] A4].
  apply memc_false in A1, A2, A3. apply str_eqb_neq in A4.
  apply nvra_roundtrip_gen; try assumption;
    try (eapply forallb_notin; [eassumption|reflexivity]).
Qed.

Definition legal_parts (p : nvra) : Prop :=
  forallb name_char (n_name p) = true /\ forallb vr_char (n_version p) = true /\
  forallb vr_char (n_release p) = true /\ In (n_arch p) RPM_ARCHES.

Lemma c13_fixpoint p : legal_parts p -> parse_nvra (format_nevra p) = Ok p.
Proof.
  intros (Hn & Hv & Hr & Ha). destruct p as [name e version release arch]. cbn [n_name n_epoch n_version n_release n_arch] in *.
  pose proof (c13_roundtrip [] name (Some e) version release arch []
                (conj (or_introl eq_refl) (fun H => H)) (or_introl eq_refl) Hn Hv Hr Ha) as H.
  cbn [app epoch_of] in H. rewrite app_nil_r in H. rewrite <- H. f_equal.
  unfold fmt, format_nevra. cbn [n_name n_epoch n_version n_release n_arch]. rewrite <- app_assoc. reflexivity.
Qed.

Example c13_example :
  parse_nvra (lit "Packages/g/gtk+3-2-1:3.24.1~rc1-2.el9_1.x86_64.rpm") =
  Ok {| n_name := lit "gtk+3-2"; n_epoch := 1; n_version := lit "3.24.1~rc1"; n_release := lit "2.el9_1"; n_arch := lit "x86_64" |}.
Proof. vm_compute. reflexivity. Qed.
