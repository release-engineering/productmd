(* C10, positive clause: a source image of a <= 1.1 document is filed under EACH binary architecture its variant lists;
   a source package of an rpms 0.3 manifest is filed under each binary architecture that lists a package built from it *)
From PM Require Import Base.PyVal Base.Obj Model.Common Model.Images Model.Manifests Model.ManifestDocs Model.Nvra
  Proofs.Monad Proofs.AssocLemmas Proofs.ManifestsProofs Proofs.ImagesProofs Proofs.ManifestDocsProofs Proofs.ArchProofs.

Definition in_cell (c : cells_t) (v a : str) (i : nat) : Prop :=
  exists arches imgs, assoc v c = Some arches /\ assoc a arches = Some imgs /\ In i (map fst imgs).

Lemma in_cell_sub c v a i : in_cell c v a i <-> In i (map fst (sub (sub c v) a)).
Proof.
  unfold in_cell, sub. split.
  - intros (arches & imgs & Hv & Ha & Hi). rewrite Hv. cbn [dflt]. rewrite Ha. exact Hi.
  - destruct (assoc v c) as [arches|]; [|intros []]. cbn [dflt]. destruct (assoc a arches) as [imgs|] eqn:Ea; [|intros []].
    intros Hi. exists arches, imgs. auto.
Qed.

Lemma images_add_mono vt c v' a' img' c' v a i :
  images_add vt c v' a' img' = Ok c' -> in_cell c v a i -> in_cell c' v a i.
Proof.
  intros H. apply images_add_spec in H. destruct H as (_ & _ & _ & ->). rewrite !in_cell_sub. unfold place.
  rewrite sub2_upd. destruct (str_eqb_spec v' v) as [->|_], (str_eqb_spec a' a) as [->|_]; auto. apply incl_map, set_add_incl.
Qed.

Theorem add_loaded_refiles vt doc_arches c v img c' :
  vt_leb vt (1, 1) = true -> add_loaded vt doc_arches c v s_src img = Ok c' ->
  (forall a, In a doc_arches -> a <> s_src -> in_cell c' v a (fst img)) /\
  (forall v1 a1 i, in_cell c v1 a1 i -> in_cell c' v1 a1 i).
Proof.
  intros Hvt H. split.
  - intros a Hin Hne. unfold add_loaded in H. rewrite Hvt, str_eqb_refl in H. revert H.
    apply (fold_bind_reach (fun c' => in_cell c' v a (fst img)) (refile vt v img) _ a Hin).
    + apply refile_pres. intros c0 a0 c1 Hc H. exact (images_add_mono _ _ _ _ _ _ _ _ _ H Hc).
    + intros c0 c1 H. unfold refile in H. destruct (str_eqb_spec a s_src); [contradiction|]. exact (in_cell_after_add _ _ _ _ _ _ H).
  - intros v1 a1 i Hc. revert H. apply (add_loaded_pres (fun c => in_cell c v1 a1 i)); [|exact Hc].
    intros c0 a0 c1 Hc0 H. exact (images_add_mono _ _ _ _ _ _ _ _ _ H Hc0).
Qed.

Theorem add_loaded_other vt doc_arches c v a img c' :
  a <> s_src \/ vt_leb vt (1, 1) = false -> add_loaded vt doc_arches c v a img = Ok c' -> images_add vt c v a img = Ok c'.
Proof.
  intros Hc H. unfold add_loaded in H. destruct (vt_leb vt (1, 1)); [|exact H].
  destruct (str_eqb_spec a s_src) as [->|_]; [|exact H]. destruct Hc as [Hc|Hc]; congruence.
Qed.

Definition present (m : rpms_t) (v a s r : str) : Prop := rpms_get m v a s r <> None.

Definition src_filed (sr v a : str) (m : rpms_t) : Prop := exists sc nd, check_nevra sr = Ok (sc, nd) /\ present m v a sc sc.

Lemma rpms_add_src_filed sr v a m v' a' n p sg c s m' :
  src_filed sr v a m -> rpms_add m v' a' n p sg c s = Ok m' -> src_filed sr v a m'.
Proof.
  intros (sc & nd & Hc & Hp) H. exists sc, nd. split; [exact Hc|].
  destruct (rpms_add_shape _ _ _ _ _ _ _ _ _ H) as (nc' & nd' & sc' & _ & _ & _ & ->).
  unfold present in *. rewrite rpms_get_put. destruct (_ && _); [discriminate|exact Hp].
Qed.

(* a source package's own entry is keyed by itself: its srpm key is its canonical name *)
Lemma file_source_filed v a sr sd m m' : sd <> PNone -> file_source v a sr sd m = Ok m' -> src_filed sr v a m'.
Proof.
  intros Hsd H. destruct (file_source_inv _ _ _ _ _ _ H) as [[E _]|(p & sg & H')]; [contradiction|].
  destruct (rpms_add_shape _ _ _ _ _ _ _ _ _ H') as (nc & nd & sc & Hc & Hk & _ & ->).
  apply Ok_inj in Hk. subst sc. exists nc, nd. split; [exact Hc|].
  unfold present. rewrite rpms_get_put, !str_eqb_refl. discriminate.
Qed.

Theorem rpms_03_refiles man m :
  deser_rpms_0_3 man = Ok m ->
  forall variants v vd arches a ad srpms sr rd srctab sd rpms,
    items man = Ok variants -> In (v, vd) variants ->
    items vd = Ok arches -> In (a, ad) arches -> a <> s_src ->
    items ad = Ok srpms -> In (sr, rd) srpms ->
    dget_default vd s_src (PDict []) = Ok srctab -> dget_default srctab sr PNone = Ok sd -> sd <> PNone ->
    items rd = Ok rpms -> rpms <> [] ->
    src_filed sr v a m.
Proof.
  intros H variants v vd arches a ad srpms sr rd srctab sd rpms Hman Hv Hvd Ha Hns Had Hsr Htab Hsd Hsdn Hrd Hne.
  rewrite deser_rpms_0_3_eq, Hman in H. cbn [bind] in H. revert H.
  pose proof (rpms_add_src_filed sr v a) as Hadd.
  (* at each level: reach the entry the hypotheses name; every other step only adds *)
  apply (fold_bind_reach _ _ _ _ Hv (variant_step_pres _ Hadd)).
  intros m0 m1 H. unfold variant_step in H. cbn [fst snd] in H. rewrite Hvd in H. cbn [bind] in H. revert H.
  apply (fold_bind_reach _ _ _ _ Ha (arch_step_pres _ Hadd _ _)).
  intros m2 m3 H. unfold arch_step in H. cbn [fst snd] in H. destruct (str_eqb_spec a s_src); [contradiction|].
  rewrite Had in H. cbn [bind] in H. revert H.
  apply (fold_bind_reach _ _ _ _ Hsr (srpm_step_pres _ Hadd _ _ _)).
  intros m4 m5 H. unfold srpm_step in H. cbn [fst snd] in H. rewrite Htab in H. cbn [bind] in H. rewrite Hsd in H. cbn [bind] in H.
  rewrite Hrd in H. cbn [bind] in H. destruct rpms as [|rp rpms']; [congruence|]. revert H.
  apply (fold_bind_reach _ _ (rp :: rpms') rp (or_introl eq_refl) (rpm_step_pres _ Hadd _ _ _ _)).
  intros m6 m7 H. destruct (rpm_step_inv _ _ _ _ _ _ _ H) as (p & sg & c & m8 & _ & H'). exact (file_source_filed _ _ _ _ _ _ Hsdn H').
Qed.

Definition ex_rpm (p : str) : pyval := PDict [(F"path", PStr p); (F"sigkey", PNone); (F"type", PStr (F"package"))].
Definition ex_03 : pyval :=
  PDict [(F"Server", PDict [
    (F"x86_64", PDict [(F"bash-0:5.1-2.el9.src.rpm", PDict [(F"bash-0:5.1-2.el9.x86_64.rpm", ex_rpm (F"Server/x86_64/os/Packages/bash.rpm"))])]);
    (F"src", PDict [(F"bash-0:5.1-2.el9.src.rpm", PDict [(F"path", PStr (F"Server/source/SRPMS/bash.src.rpm")); (F"sigkey", PNone); (F"type", PStr (F"source"))])])])].

Example rpms_03_refiles_nonvacuous :
  exists mm : rpms_t,
    deser_rpms_0_3 ex_03 = Ok mm /\
    rpms_get mm (F"Server") (F"x86_64") (F"bash-0:5.1-2.el9.src") (F"bash-0:5.1-2.el9.src") <> None /\
    assoc (F"src") (dflt [] (assoc (F"Server") mm)) = None.
Proof. eexists. split; [vm_compute; reflexivity|]. split; [vm_compute; discriminate|vm_compute; reflexivity]. Qed.
