(* C11: the parent/child edge invariant of the composeinfo variant forest, over ALL add histories; and that get_variants
   returns its result ordered by UID *)
From PM Require Import Model.Variants Proofs.VariantsProofs Proofs.KeyedSort.
From Coq Require Import Sorting.Sorted.

Definition dnode : vnode := {| vn_fields := []; vn_parent := None; vn_children := [] |}.

Lemma node_set_nth h r x r' : node (set_nth r x h) r' = if Nat.eqb r' r && Nat.ltb r (length h) then x else node h r'.
Proof.
  unfold node. revert r r'. induction h as [|y h IH]; intros r r'.
  - cbn [set_nth length]. destruct r; cbn; rewrite andb_false_r; reflexivity.
  - destruct r as [|r]; cbn [set_nth]; [destruct r'; reflexivity|].
    destruct r' as [|r']; cbn [nth]; [reflexivity|]. rewrite IH. reflexivity.
Qed.

Lemma length_set_nth {A} n (x : A) l : length (set_nth n x l) = length l.
Proof. revert n. induction l as [|y l IH]; intros n; destruct n; cbn; auto. Qed.

Lemma node_overflow h r : (length h <= r)%nat -> node h r = dnode.
Proof. intros H. unfold node. apply nth_overflow. exact H. Qed.

Lemma node_set_parent h r p r' :
  vn_fields (node (set_parent h r p) r') = vn_fields (node h r') /\
  vn_children (node (set_parent h r p) r') = vn_children (node h r') /\
  (vn_parent (node (set_parent h r p) r') = vn_parent (node h r') \/ r' = r /\ vn_parent (node (set_parent h r p) r') = p).
Proof.
  unfold set_parent. rewrite node_set_nth.
  destruct (Nat.eqb_spec r' r) as [->|_]; [destruct (Nat.ltb r (length h))|]; cbn; auto.
Qed.

Lemma node_set_children h r cs r' :
  vn_fields (node (set_children h r cs) r') = vn_fields (node h r') /\
  vn_parent (node (set_children h r cs) r') = vn_parent (node h r') /\
  (vn_children (node (set_children h r cs) r') = vn_children (node h r') \/ r' = r /\ vn_children (node (set_children h r cs) r') = cs).
Proof.
  unfold set_children. rewrite node_set_nth.
  destruct (Nat.eqb_spec r' r) as [->|_]; [destruct (Nat.ltb r (length h))|]; cbn; auto.
Qed.

(* what an edge must satisfy depends on the fields of the two objects only, which add never changes *)
Definition aligned (h : heap) (c v : nat) : Prop :=
  fld h v (F"uid") = PStr (fmt_s (fld h c (F"uid")) ++ c_dash :: fmt_s (fld h v (F"id"))).

Definition arch_sub (h : heap) (c v : nat) : Prop :=
  exists mine theirs, fld h v (F"arches") = PList mine /\ fld h c (F"arches") = PList theirs /\
                      forallb (fun a => py_in a theirs) mine = true.

Definition edge_ok (h : heap) (c v : nat) : Prop := aligned h c v /\ arch_sub h c v.

Lemma edge_ok_fields h h' c v :
  (forall r, vn_fields (node h' r) = vn_fields (node h r)) -> edge_ok h c v -> edge_ok h' c v.
Proof. intros Hf. unfold edge_ok, aligned, arch_sub, fld. rewrite !Hf. auto. Qed.

(* every child that points back to its parent is aligned with it and within its architectures; object 0 is the container
   (Variants), which is nobody's parent *)
Definition Inv (h : heap) : Prop :=
  forall c v key, c <> O -> In (key, v) (vn_children (node h c)) -> vn_parent (node h v) = Some c -> edge_ok h c v.

(* real Variant objects have no attribute named like the validators' context *)
Definition ctx_keys : list str := [F"_has_parent"; F"_parent_uid"; F"_parent_arches"; F"_children"].
Definition no_pseudo (h : heap) : Prop := forall r k, In k ctx_keys -> assoc k (vn_fields (node h r)) = None.

Lemma no_pseudo_fields h h' : (forall r, vn_fields (node h' r) = vn_fields (node h r)) -> no_pseudo h -> no_pseudo h'.
Proof. intros Hf H r k Hk. rewrite Hf. exact (H r k Hk). Qed.

Lemma validated_edge h v c :
  no_pseudo h -> vn_parent (node h v) = Some c -> validate_variant h v = Ok tt -> edge_ok h c v.
Proof.
  intros Hnp Hp Hv. unfold validate_variant, variant_ctx in Hv. rewrite Hp in Hv.
  apply validated_under_parent in Hv; [|apply Hnp; unfold ctx_keys, In; auto..].
  destruct Hv as (Hu & mine & theirs & H1 & H2 & H3). split; [exact Hu|]. exists mine, theirs. auto.
Qed.

Lemma inv_set_parent h v p :
  no_pseudo h -> Inv h -> validate_variant (set_parent h v p) v = Ok tt -> Inv (set_parent h v p).
Proof.
  intros Hnp HI Hv c' v' key Hc' Hin Hpar.
  assert (Hf : forall r, vn_fields (node (set_parent h v p) r) = vn_fields (node h r)) by (intros r; apply node_set_parent).
  destruct (node_set_parent h v p c') as (_ & Hch & _). rewrite Hch in Hin.
  destruct (node_set_parent h v p v') as (_ & _ & [Hp|[-> _]]).
  - rewrite Hp in Hpar. exact (edge_ok_fields h _ _ _ Hf (HI _ _ _ Hc' Hin Hpar)).
  - exact (validated_edge _ _ _ (no_pseudo_fields _ _ Hf Hnp) Hpar Hv).
Qed.

Lemma inv_add_child h c v key :
  no_pseudo h -> Inv h -> validate_variant h v = Ok tt -> Inv (set_children h c (vn_children (node h c) ++ [(key, v)])).
Proof.
  intros Hnp HI Hv c' v' key' Hc' Hin Hpar.
  apply (edge_ok_fields h); [intros r; apply node_set_children|].
  destruct (node_set_children h c (vn_children (node h c) ++ [(key, v)]) v') as (_ & Hp & _). rewrite Hp in Hpar.
  destruct (node_set_children h c (vn_children (node h c) ++ [(key, v)]) c') as (_ & _ & [Hch|[-> Hch]]); rewrite Hch in Hin.
  - exact (HI _ _ _ Hc' Hin Hpar).
  - apply in_app_or in Hin. destruct Hin as [Hin|[E|[]]]; [exact (HI _ _ _ Hc' Hin Hpar)|].
    injection E as <- <-. exact (validated_edge _ _ _ Hnp Hpar Hv).
Qed.

Lemma variant_add_keeps h c v vid :
  no_pseudo h -> Inv h -> Inv (fst (variant_add h c v vid)) /\ no_pseudo (fst (variant_add h c v vid)).
Proof.
  intros Hnp HI. destruct (variant_add_cases h c v vid) as [(e & ->)|(Hv & _ & Hcase)]; [split; assumption|].
  set (h1 := if Nat.eqb c 0 then h else set_parent h v (Some c)) in *.
  assert (H1 : Inv h1 /\ no_pseudo h1).
  { unfold h1 in *. destruct (Nat.eqb c 0); [split; assumption|]. split; [apply inv_set_parent; assumption|].
    apply (no_pseudo_fields h); [intros r; apply node_set_parent|exact Hnp]. }
  destruct H1 as [I1 NP1]. destruct Hcase as [->|(key & ->)]; cbn [fst]; [split; assumption|].
  split; [apply inv_add_child; assumption|]. apply (no_pseudo_fields h1); [intros r; apply node_set_children|exact NP1].
Qed.

Definition vop := (nat * nat * option str)%type.
Definition apply_vop (h : heap) (op : vop) : heap := let '(c, v, vid) := op in fst (variant_add h c v vid).

Definition fresh_heap (h : heap) : Prop := forall r, vn_parent (node h r) = None /\ vn_children (node h r) = [].

Theorem reach_inv h ops : fresh_heap h -> no_pseudo h -> Inv (fold_left apply_vop ops h) /\ no_pseudo (fold_left apply_vop ops h).
Proof.
  intros Hf Hnp. assert (HI : Inv h).
  { intros c v key _ Hin _. destruct (Hf c) as [_ Hc]. rewrite Hc in Hin. destruct Hin. }
  clear Hf. revert h HI Hnp. induction ops as [|[[c v] vid] ops IH]; intros h HI Hnp; cbn [fold_left]; [split; assumption|].
  destruct (variant_add_keeps h c v vid Hnp HI) as [HI' Hnp']. exact (IH _ HI' Hnp').
Qed.

Definition ex_var (id uid ty : str) (arches : list str) : vnode :=
  {| vn_fields := [(F"id", PStr id); (F"uid", PStr uid); (F"name", PStr id); (F"type", PStr ty); (F"arches", PList (map PStr arches))];
     vn_parent := None; vn_children := [] |}.
Definition ex_heap : heap :=
  [dnode; ex_var (F"Server") (F"Server") (F"variant") [F"x86_64"; F"ppc64le"];
          ex_var (F"optional") (F"Server-optional") (F"optional") [F"x86_64"]].
Definition ex_ops : list vop := [(0, 1, None); (1, 2, None)]%nat.

Example reach_inv_nonvacuous :
  fresh_heap ex_heap /\ no_pseudo ex_heap /\
  let h := fold_left apply_vop ex_ops ex_heap in
  In (F"optional", 2%nat) (vn_children (node h 1)) /\ vn_parent (node h 2) = Some 1%nat.
Proof.
  split; [|split].
  - intros r. do 3 (destruct r as [|r]; [split; reflexivity|]). unfold node. cbn [nth ex_heap]. destruct r; split; reflexivity.
  - intros r k Hk. do 3 (destruct r as [|r]; [cbn in Hk; repeat (destruct Hk as [<-|Hk]; [vm_compute; reflexivity|]); destruct Hk|]).
    unfold node. cbn [nth ex_heap]. destruct r; reflexivity.
  - vm_compute. split; [left; reflexivity|reflexivity].
Qed.

Definition uid_le (h : heap) (x y : nat) : Prop := str_ltb (uid_str h y) (uid_str h x) = false.

Theorem get_variants_sorted fuel h c arch types recursive :
  StronglySorted (uid_le h) (get_variants fuel h c arch types recursive).
Proof. destruct fuel as [|f]; cbn [get_variants]; [constructor|]. rewrite sort_by_uid_eq. apply (sortl_by_sorted (uid_str h) true). Qed.
