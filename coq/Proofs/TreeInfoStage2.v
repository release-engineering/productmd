(* C04: the [stage2] and [media] sections - what the reader finds there on a table the writer produced - and integer timestamps *)
From PM Require Import Base.PyVal Base.Obj Base.Ini Model.Common Model.TreeInfo Proofs.Monad Proofs.TextLemmas
  Proofs.IniLemmas Proofs.TreeInfoWriter Proofs.TreeInfoReadBack.

(* a falsy image is not written, and is read as None *)
Lemma r_stage2_written x mv t : ser_ti x mv = Ok t ->
  r_stage2 t = [(F"mainimage", or_none (getf (ti_stage2 x) (F"mainimage"))); (F"instimage", or_none (getf (ti_stage2 x) (F"instimage")))].
Proof.
  intros Hw. destruct (ser_ti_section x mv t (F"stage2") _ Hw eq_refl) as (p & p' & G & A & E).
  unfold r_stage2, or_none. rewrite !opt_get_ini, !(ini_get_ext _ _ _ _ E), <- !opt_get_ini. unfold stage, w_stage2 in G. cbv zeta in G.
  destruct (truthy (getf (ti_stage2 x) (F"mainimage"))), (truthy (getf (ti_stage2 x) (F"instimage"))); cbn [negb andb] in G.
  4:{ injection G as <-. rewrite !opt_get_ini, !(ini_get_none _ _ _ A). reflexivity. }
  all: inv_bind G as u Gu; inv_bind G as q Gq; inv_bind G as q1 Gq1;
    assert (Hq : forall o, opt_get q (F"stage2") o = PNone) by (intros o; rewrite opt_get_ini, (add_section_fresh _ _ _ _ Gq); reflexivity).
  - destruct (ini_set_opt_get _ _ _ _ _ Gq1) as [S1 O1]. destruct (ini_set_opt_get _ _ _ _ _ G) as [S2 O2].
    rewrite O2, S1, S2 by discriminate. reflexivity.
  - destruct (ini_set_opt_get _ _ _ _ _ Gq1) as [S1 O1]. injection G as <-. rewrite S1, O1, Hq by discriminate. reflexivity.
  - injection Gq1 as <-. destruct (ini_set_opt_get _ _ _ _ _ G) as [S2 O2]. rewrite O2, S2, Hq by discriminate. reflexivity.
Qed.

(* [media]: both numbers go through int(), str() and int() again *)
Theorem media_read_back x mv t x' :
  ser_ti x mv = Ok t -> deser_ti t = Ok x' ->
  let d := getf (ti_media x) (F"discnum") in
  let n := getf (ti_media x) (F"totaldiscs") in
  if negb (truthy d) && negb (truthy n)
  then ti_media x' = [(F"discnum", PNone); (F"totaldiscs", PNone)]
  else exists zd zn, py_int d = Ok (PInt zd) /\ py_int n = Ok (PInt zn) /\
                     ti_media x' = [(F"discnum", PInt zd); (F"totaldiscs", PInt zn)].
Proof.
  intros Hw Hr. cbv zeta. pose proof (deser_ti_media t x' Hr) as Gm.
  destruct (ser_ti_section x mv t (F"media") _ Hw eq_refl) as (p & p' & G & A & E).
  unfold stage, w_media in G. cbv zeta in G. unfold r_media in Gm.
  destruct (negb (truthy (getf (ti_media x) (F"discnum"))) && negb (truthy (getf (ti_media x) (F"totaldiscs")))).
  - injection G as <-. unfold has_section in Gm. rewrite E, A in Gm. cbn [bind] in Gm. inv_bind Gm as u Gu. injection Gm as <-. reflexivity.
  - inv_bind G as u Gu. inv_bind G as q Gq. inv_bind G as dn Gd. inv_bind G as dn_s Gds. inv_bind G as td Gt. inv_bind G as td_s Gtds.
    destruct (py_int_PInt _ _ Gd) as (zd & ->). destruct (py_int_PInt _ _ Gt) as (zn & ->). injection Gds as <-. injection Gtds as <-.
    destruct (sets_get _ _ _ _ G eq_refl) as [S _].
    destruct (S (F"discnum") _ eq_refl) as (a & Ha & Ga). destruct (S (F"totaldiscs") _ eq_refl) as (b & Hb & Gb).
    injection Ha as <-. injection Hb as <-. pose proof (fun o => ini_get_ext _ _ _ o E) as K. rewrite <- K in Ga, Gb.
    rewrite (ini_get_has_section _ _ _ _ Ga), Ga, Gb in Gm. cbn [bind] in Gm. rewrite !py_int_show_Z in Gm. cbn [bind] in Gm.
    inv_bind Gm as u' Gu'. injection Gm as <-. eauto.
Qed.

(* an integer [tree] build_timestamp survives its text exactly, whatever its size *)
Lemma float_text_show_Z z : float_text_to_int (show_Z z) = Ok (PInt z).
Proof.
  unfold float_text_to_int. rewrite strip_ws_show_Z, (split_first_none c_dot (show_Z z) (show_Z_no_dot z)). apply py_int_show_Z.
Qed.
