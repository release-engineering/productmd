(* C14: the three validity predicates (the regenerated patterns run by the verified matcher) accept exactly the
   documented languages *)
From PM Require Import Base.PyVal Base.Regex Model.ReleaseId Proofs.StrLemmas Proofs.RegexSem Gen.Regexes.
Open Scope nat_scope.

Inductive SepSegs (sep : chr) (p : chr -> bool) : str -> Prop :=
| ss_nil : SepSegs sep p []
| ss_cons d ds rest : p d = true -> forallb p ds = true -> SepSegs sep p rest -> SepSegs sep p (sep :: d :: ds ++ rest).

Definition ld (c : chr) : bool := is_lower c || is_digit c.

(* a lowercase letter followed by lowercase alphanumerics in non-empty dash-separated segments *)
Definition DocShort (s : str) : Prop :=
  exists l run tail, s = l :: run ++ tail /\ is_lower l = true /\ forallb ld run = true /\ SepSegs c_dash ld tail.

(* dot-separated decimal integers, or any non-empty string not starting with a digit (on one line) *)
Definition DocVersion (s : str) : Prop :=
  (exists c t, s = c :: t /\ is_digit c = false /\ ~ In c_nl t) \/
  (exists d ds tail, s = d :: ds ++ tail /\ is_digit d = true /\ forallb is_digit ds = true /\ SepSegs c_dot is_digit tail).

Definition seg_re (sep : chr) (pc : cset) : re := Cat (Cls (CS false [(sep, sep)])) (Cat (Cls pc) (Star (Cls pc))).

Lemma star_segs n sep pc p : (forall x, cs_mem x pc = p x) -> denotes (Star (Grp n (seg_re sep pc))) (SepSegs sep p).
Proof.
  intros Hp.
  assert (Hseg : denotes (Grp n (seg_re sep pc)) (lcat (lchar (fun x => N.eqb x sep)) (lcat (lchar p) (lall p)))).
  { apply den_grp, den_cat; [apply den_cls, cs_single|]. apply den_cat; [apply den_cls|apply den_star_cls]; exact Hp. }
  intros pos u rest. split.
  - intros H. remember (Star (Grp n (seg_re sep pc))) as r eqn:Hr.
    induction H; try discriminate; injection Hr as ->; [constructor|].
    apply Hseg, lcat_char in H0. destruct H0 as (x & t & -> & Hx & Ht).
    apply lcat_char in Ht. destruct Ht as (d & ds & -> & Hd & Hds).
    apply N.eqb_eq in Hx. subst x. cbn [app]. constructor; auto.
  - intros H. revert pos. induction H as [|d ds tail Hd Hds _ IH]; intros pos; [constructor|].
    apply (mt_star1 _ pos (sep :: d :: ds) tail); [discriminate| |apply IH].
    apply Hseg, lcat_char. exists sep, (d :: ds). rewrite N.eqb_refl, lcat_char. eauto 8.
Qed.

Definition cs_lower : cset := CS false [(97, 122)%N].
Definition cs_ld : cset := CS false [(97, 122)%N; (48, 57)%N].
Definition cs_dig : cset := CS false [(48, 57)%N].

Lemma cs_lower_spec x : cs_mem x cs_lower = is_lower x.
Proof. unfold cs_lower. rewrite cs_range. apply xorb_false_l. Qed.
Lemma cs_ld_spec x : cs_mem x cs_ld = ld x.
Proof. cbn [cs_mem cs_ld in_ranges existsb fst snd]. rewrite orb_false_r. apply xorb_false_l. Qed.

Definition short_shape : re :=
  Cat Bol (Cat (Cls cs_lower) (Cat (Star (Cls cs_ld)) (Cat (Star (Grp 1 (seg_re c_dash cs_ld))) Eol))).

(* obligation on the regenerated patterns: they have the analysed shape *)
Lemma short_re_is_shape : re_release_short = short_shape /\ re_release_type = short_shape.
Proof. split; reflexivity. Qed.

Lemma short_shape_lang s :
  re_matches short_shape s = true <-> exists body, (s = body \/ s = body ++ [c_nl]) /\ DocShort body.
Proof.
  eapply anchored_lang.
  - apply den_cat_eol; [apply den_cls, cs_lower_spec|]. apply den_cat_eol; [apply den_star_cls, cs_ld_spec|].
    apply den_end, star_segs, cs_ld_spec.
  - intros u. rewrite lcat_char. split.
    + intros (l & t & -> & Hl & run & tail & -> & H). exists l, run, tail. auto.
    + intros (l & run & tail & -> & Hl & H). exists l, (run ++ tail). repeat split; [exact Hl|]. exists run, tail. auto.
Qed.

Theorem valid_short_lang s :
  valid_short s = true <-> exists body, (s = body \/ s = body ++ [c_nl]) /\ DocShort body.
Proof. unfold valid_short. rewrite (proj1 short_re_is_shape). apply short_shape_lang. Qed.

Theorem valid_type_lang s :
  valid_type s = true <-> exists body, (s = body \/ s = body ++ [c_nl]) /\ DocShort body.
Proof. unfold valid_type. rewrite (proj2 short_re_is_shape). apply short_shape_lang. Qed.

Lemma SepSegs_chars sep p t c : SepSegs sep p t -> In c t -> c = sep \/ p c = true.
Proof.
  induction 1 as [|d ds rest Hd Hds _ IH]; intros Hc; [destruct Hc|]. rewrite forallb_forall in Hds.
  destruct Hc as [<-|[<-|Hc]]; auto. apply in_app_or in Hc. destruct Hc; auto.
Qed.

Lemma DocShort_chars body c : DocShort body -> In c body -> c = c_dash \/ ld c = true.
Proof.
  intros (l & run & tail & -> & Hl & Hrun & Ht) [<-|Hc]; [right; unfold ld; rewrite Hl; reflexivity|].
  rewrite forallb_forall in Hrun. apply in_app_or in Hc. destruct Hc; [auto|exact (SepSegs_chars _ _ _ _ Ht H)].
Qed.

Example doc_short_example : DocShort (lit "rhel-ha2-x") /\ valid_short (lit "rhel-ha2-x") = true /\ valid_short (lit "Rhel") = false.
Proof.
  split; [|split; vm_compute; reflexivity].
  exists 114%N, (lit "hel"), (lit "-ha2-x"). repeat split; try reflexivity.
  apply (ss_cons c_dash ld 104%N (lit "a2") (lit "-x")); try reflexivity.
  apply (ss_cons c_dash ld 120%N [] []); try reflexivity. constructor.
Qed.

Definition cs_nondigit : cset := CS true [(48, 57)%N].
Definition version_shape : re :=
  Cat Bol (Cat (Grp 1 (Alt (Cat (Cls cs_nondigit) (Star (Cls any_but_nl)))
                           (Grp 2 (Cat (Cat (Cls cs_dig) (Star (Cls cs_dig))) (Star (Grp 3 (seg_re c_dot cs_dig))))))) Eol).

Lemma version_re_is_shape : re_release_version = version_shape.
Proof. reflexivity. Qed.

Lemma cs_nondigit_spec x : cs_mem x cs_nondigit = negb (is_digit x).
Proof. exact (cs_range true 48 57 x). Qed.

Theorem valid_version_lang s :
  valid_version s = true <-> exists body, (s = body \/ s = body ++ [c_nl]) /\ DocVersion body.
Proof.
  unfold valid_version. rewrite version_re_is_shape. eapply anchored_lang.
  - apply den_end, den_grp, den_alt.
    + apply den_cat; [apply den_cls, cs_nondigit_spec|apply den_star_cls, any_but_nl_spec].
    + apply den_grp, den_cat; [|apply star_segs, digit_cs_spec]. apply den_cat; [apply den_cls|apply den_star_cls]; apply digit_cs_spec.
  - intros u. cbv beta. rewrite lcat_char. unfold DocVersion, lall. setoid_rewrite forallb_neq. setoid_rewrite negb_true_iff.
    apply or_iff_compat_l. split.
    + intros (u1 & tail & -> & H & Ht). apply lcat_char in H. destruct H as (d & ds & -> & H). exists d, ds, tail. tauto.
    + intros (d & ds & tail & -> & Hd & Hds & Ht). exists (d :: ds), tail. rewrite lcat_char. eauto 8.
Qed.
