(* C02: a whole images manifest survives serialize / deserialize: every cell is read back with exactly its images
   (ordered by path), empty cells are not written, the compose section is intact *)
From PM Require Import Base.PyVal Base.Obj Model.Common Model.Images Model.Manifests Proofs.Monad Proofs.ListLemmas
  Proofs.AssocLemmas Proofs.KeyedSort Proofs.CommonProofs Proofs.ImagesProofs Proofs.ImagesRoundtrip Proofs.ArchProofs
  Proofs.SortProofs Gen.Tables.
From Coq Require Import Lia.

Definition map_snd {A B} (g : A -> B) (l : list (str * A)) : list (str * B) := map (fun kv => (fst kv, g (snd kv))) l.

Lemma assoc_map_snd {A B} (g : A -> B) k l : assoc k (map_snd g l) = option_map g (assoc k l).
Proof. induction l as [|[k' v] l IH]; cbn [map_snd map assoc fst snd]; [reflexivity|]. destruct (str_eqb k k'); [reflexivity|exact IH]. Qed.

Lemma upd_map_snd {A B} (g : A -> B) (f : option A -> A) (f' : option B -> B) k l :
  g (f (assoc k l)) = f' (option_map g (assoc k l)) ->
  map_snd g (upd k f l) = upd k f' (map_snd g l).
Proof.
  induction l as [|[k' v] l IH]; cbn [upd map_snd map assoc fst snd]; intros H.
  - cbn in H. rewrite H. reflexivity.
  - destruct (str_eqb k k') eqn:E; cbn [map fst snd].
    + cbn in H. rewrite H. reflexivity.
    + f_equal. apply IH. exact H.
Qed.

Lemma in_map_snd {A B} (g : A -> B) k b l : In (k, b) (map_snd g l) -> exists a, In (k, a) l /\ b = g a.
Proof. intros H. apply in_map_iff in H. destruct H as ([k' a] & E & Hin). injection E as <- <-. eauto. Qed.

Lemma keys_map_snd {A B} (g : A -> B) l : keys (map_snd g l) = keys l.
Proof. unfold map_snd, keys. rewrite map_map. reflexivity. Qed.

(* the value view of a manifest: its cells with the object ids forgotten *)
Definition vcells := list (str * list (str * list obj)).
Definition vals (c : cells_t) : vcells := map_snd (map_snd (map snd)) c.

Definition add_val (vc : vcells) (v a : str) (o : obj) : vcells :=
  upd v (fun x => upd a (fun l => dflt [] l ++ [o]) (dflt [] x)) vc.

(* an image whose id is not in the manifest yet is appended to its cell *)
Lemma vals_place c v a n o :
  (forall x, In x (all_images c) -> fst x <> n) -> vals (place v a (n, o) c) = add_val (vals c) v a o.
Proof.
  intros Hb. apply upd_map_snd.
  destruct (assoc v _) as [arches|] eqn:Ev; [|reflexivity]. apply upd_map_snd.
  destruct (assoc a _) as [imgs|] eqn:Ea; [|reflexivity]. cbn [option_map dflt].
  rewrite set_add_fresh, map_app; [reflexivity|]. intros x Hx.
  apply Hb, in_all_images. exists v, arches, a, imgs. auto using assoc_In.
Qed.

(* a canonical view is rebuilt by adding its (variant, arch, object) triples in order *)
Definition pairs_of (arches : list (str * list obj)) : list (str * obj) :=
  flat_map (fun ao => map (fun o => (fst ao, o)) (snd ao)) arches.

Definition arch_canonical (arches : list (str * list obj)) : Prop :=
  NoDup (keys arches) /\ forall a os, In (a, os) arches -> os <> [].

Definition triples_of (vc : vcells) : list (str * str * obj) :=
  flat_map (fun va => map (fun p => (fst va, fst p, snd p)) (pairs_of (snd va))) vc.

Definition add_all (vc : vcells) (l : list (str * str * obj)) : vcells :=
  fold_left (fun acc t => add_val acc (fst (fst t)) (snd (fst t)) (snd t)) l vc.

Definition canonical (vc : vcells) : Prop :=
  NoDup (keys vc) /\ forall v arches, In (v, arches) vc -> arches <> [] /\ arch_canonical arches.

Lemma arches_rebuild arches :
  arch_canonical arches -> fold_left (fun ar p => upd (fst p) (fun l => dflt [] l ++ [snd p]) ar) (pairs_of arches) [] = arches.
Proof.
  intros [Hnd Hne]. unfold pairs_of. rewrite fold_left_flat_map_map.
  apply (fold_groups [] (fun l o => l ++ [o]) (fun os => os) arches [] Hnd); [|reflexivity].
  intros a os Hin. split; [exact (Hne a os Hin)|apply fold_left_snoc].
Qed.

Corollary rebuild vc : canonical vc -> add_all [] (triples_of vc) = vc.
Proof.
  intros [Hnd Hc]. unfold add_all, triples_of. rewrite fold_left_flat_map_map.
  apply (fold_groups [] (fun ar p => upd (fst p) (fun l => dflt [] l ++ [snd p]) ar) pairs_of vc [] Hnd); [|reflexivity].
  intros v arches Hin. destruct (Hc v arches Hin) as [Hne Hac]. split; [|exact (arches_rebuild arches Hac)].
  destruct arches as [|[a os] arches]; [congruence|]. destruct Hac as [_ Hos]. specialize (Hos a os (or_introl eq_refl)).
  destruct os; [congruence|discriminate].
Qed.

Definition okey (o : obj) : str := match getf o (F"path") with PStr s => s | _ => [] end.

Lemma path_key_ser_total o : path_key (ser_total o) = okey o.
Proof. unfold ser_total, ser_fields, path_key, okey. destruct (truthy (getf o (F"unified"))); reflexivity. Qed.

Fixpoint insert_obj (o : obj) (l : list obj) : list obj :=
  match l with
  | [] => [o]
  | x :: l' => if str_ltb (okey o) (okey x) then o :: l else x :: insert_obj o l'
  end.
Definition sort_objs (os : list obj) : list obj := fold_left (fun l o => insert_obj o l) os [].

(* the writer's sort of a cell, on objects instead of their dictionaries; written out because the statements about whole
   manifests mention it *)
Lemma sort_objs_eq os : sort_objs os = sortl_by okey true os.
Proof. reflexivity. Qed.

Lemma sort_by_path_eq ds : sort_by_path ds = sortl_by path_key true ds.
Proof. reflexivity. Qed.

Definition canon_arches (arches : list (str * list obj)) : list (str * list obj) :=
  flat_map (fun ao => match snd ao with [] => [] | _ => [(fst ao, sort_objs (snd ao))] end) arches.
Definition canon (vc : vcells) : vcells :=
  flat_map (fun va => match canon_arches (snd va) with [] => [] | ca => [(fst va, ca)] end) vc.

Definition ser_arches_v (arches : list (str * list obj)) : list (str * pyval) :=
  map (fun ao => (fst ao, PList (map ser_total (snd ao)))) arches.
Definition ser_vc (vc : vcells) : list (str * pyval) := map (fun va => (fst va, PDict (ser_arches_v (snd va)))) vc.

Definition all_valid (imgs : list image) : Prop := forall x, In x imgs -> validate image_cls (snd x) = Ok tt.

Lemma all_valid_app l1 l2 : all_valid (l1 ++ l2) <-> all_valid l1 /\ all_valid l2.
Proof. unfold all_valid. rewrite <- !Forall_forall. apply Forall_app. Qed.

Lemma ser_cell_spec imgs c : ser_cell imgs = Ok c <-> all_valid imgs /\ c = map ser_total (sort_objs (map snd imgs)).
Proof.
  rewrite ser_cell_eq, sort_objs_eq, (map_sortl_by okey path_key true ser_total path_key_ser_total), map_map.
  pose proof (mapM_spec (fun im => ser_image (snd im)) (fun im => validate image_cls (snd im) = Ok tt) (fun im => ser_total (snd im))
                (fun im d => ser_image_spec (snd im) d) imgs) as Hm.
  split.
  - intros H. inv_bind H as ds E. apply Hm in E. destruct E as [Hv ->]. apply Ok_inj in H. rewrite sort_by_path_eq in H. auto.
  - intros [Hv ->]. rewrite (proj2 (Hm _) (conj Hv eq_refl)). cbn [bind]. rewrite sort_by_path_eq. reflexivity.
Qed.

Lemma ser_arches_spec arches r :
  ser_arches arches = Ok r <-> all_valid (flat_map snd arches) /\ r = ser_arches_v (canon_arches (map_snd (map snd) arches)).
Proof.
  revert r. induction arches as [|[a imgs] arches IH]; intros r; cbn [ser_arches flat_map snd].
  - split; [intros H; apply Ok_inj in H; subst r; split; [intros x []|reflexivity]|intros [_ ->]; reflexivity].
  - rewrite all_valid_app. split.
    + intros H. inv_bind H as c Ec. inv_bind H as r' Er. apply Ok_inj in H. subst r.
      apply ser_cell_spec in Ec. apply IH in Er. destruct Ec as [Hc ->], Er as [Hr ->]. split; [auto|]. destruct imgs; reflexivity.
    + intros [[Hc Hr] ->]. rewrite (proj2 (ser_cell_spec imgs _) (conj Hc eq_refl)), (proj2 (IH _) (conj Hr eq_refl)).
      destruct imgs; reflexivity.
Qed.

Lemma ser_image_variants_spec c r : ser_variants c = Ok r <-> all_valid (all_images c) /\ r = ser_vc (canon (vals c)).
Proof.
  revert r. induction c as [|[v arches] c IH]; intros r; cbn [ser_variants all_images flat_map snd].
  - split; [intros H; apply Ok_inj in H; subst r; split; [intros x []|reflexivity]|intros [_ ->]; reflexivity].
  - fold (all_images c). rewrite all_valid_app. split.
    + intros H. inv_bind H as ar Ea. inv_bind H as r' Er. apply Ok_inj in H. subst r.
      apply ser_arches_spec in Ea. apply IH in Er. destruct Ea as [Ha ->], Er as [Hr ->]. split; [auto|].
      cbn [vals map_snd map canon flat_map fst snd]. destruct (canon_arches _); reflexivity.
    + intros [[Ha Hr] ->]. rewrite (proj2 (ser_arches_spec arches _) (conj Ha eq_refl)), (proj2 (IH _) (conj Hr eq_refl)).
      cbn [bind vals map_snd map canon flat_map fst snd]. destruct (canon_arches _); reflexivity.
Qed.

(* the document written for a manifest *)
Lemma ser_images_spec st doc :
  ser_images st = Ok doc <->
  exists cj, ser_compose (im_compose st) = Ok cj /\ all_valid (all_images (im_cells st)) /\
    doc = PDict [(F"header", PDict [(F"type", PStr images_mtype); (F"version", current_version)]);
                 (F"payload", PDict [(F"images", PDict (ser_vc (canon (vals (im_cells st))))); (F"compose", cj)])].
Proof.
  unfold ser_images. rewrite ser_header_ok. cbn [bind]. split.
  - intros H. inv_bind H as cj Ec. inv_bind H as imgs Ev. apply Ok_inj in H. apply ser_image_variants_spec in Ev.
    destruct Ev as [Hv ->]. eauto.
  - intros (cj & Ec & Hv & ->). rewrite Ec, (proj2 (ser_image_variants_spec _ _) (conj Hv eq_refl)). reflexivity.
Qed.

(* the three nested loops of Images.deserialize, body by body; the state is the next object id and the cells *)
Definition read_image (vt : N * N) (ks : list str) (v a : str) (s : nat * cells_t) (d : pyval) : result (nat * cells_t) :=
  let '(next, c) := s in
  do o <- deser_image vt d;
  do c' <- add_loaded vt ks c v a (next, o);
  Ok (S next, c').

Definition read_cell (vt : N * N) (ks : list str) (v : str) (s : nat * cells_t) (ai : str * pyval) : result (nat * cells_t) :=
  match snd ai with
  | PList il => fold_left (fun acc d => do s <- acc; read_image vt ks v (fst ai) s d) il (Ok s)
  | PDict kv => match kv with [] => Ok s | _ => Err TypeError end
  | PStr x => match x with [] => Ok s | _ => Err TypeError end
  | _ => Err TypeError
  end.

Definition read_variant (vt : N * N) (s : nat * cells_t) (va : str * pyval) : result (nat * cells_t) :=
  match snd va with
  | PDict arches => fold_left (fun acc ai => do s <- acc; read_cell vt (map fst arches) (fst va) s ai) arches (Ok s)
  | PList l => match l with [] => Ok s | _ => Err TypeError end
  | PStr x => match x with [] => Ok s | _ => Err TypeError end
  | _ => Err TypeError
  end.

Lemma deser_images_eq doc :
  deser_images doc =
  (do hv <- deser_header images_mtype doc;
   let vt := snd hv in
   do payload <- dget doc (F"payload");
   do compose <- deser_compose vt payload;
   do imgs <- dget payload (F"images");
   match imgs with
   | PDict variants =>
       do cells <- fold_left (fun acc va => do s <- acc; read_variant vt s va) variants (Ok (O, []));
       Ok {| im_version := current_version; im_compose := compose; im_cells := snd cells |}
   | PList l => match l with
                | [] => Ok {| im_version := current_version; im_compose := compose; im_cells := [] |}
                | _ => Err TypeError
                end
   | PStr s => match s with
               | [] => Ok {| im_version := current_version; im_compose := compose; im_cells := [] |}
               | _ => Err TypeError
               end
   | _ => Err TypeError
   end).
Proof. reflexivity. Qed.

(* reading back a written view whose objects are taken from V: every step succeeds and acts on the value view of the cells
   as add_val does *)
Section Reload.
  Variable V : list obj.
  Hypothesis HP : forall x y, In x V -> In y V -> same_identity x y = true -> same_checksums x y = true.

  Definition good_obj (o : obj) : Prop := In o V /\ image_normal o /\ validate image_cls o = Ok tt.
  Definition good_cell (ao : str * list obj) : Prop := arch_ok (fst ao) = true /\ forall o, In o (snd ao) -> good_obj o.
  Definition good_variant (va : str * list (str * list obj)) : Prop := forall ao, In ao (snd va) -> good_cell ao.

  (* every image read so far holds an object of V, under an id below the next one *)
  Definition loaded (s : nat * cells_t) : Prop := forall x, In x (all_images (snd s)) -> In (snd x) V /\ (fst x < fst s)%nat.

  Lemma loaded_init : loaded (O, []).
  Proof. intros x []. Qed.

  Lemma read_image_sim ks v a : arch_ok a = true -> forall s o, loaded s -> good_obj o ->
    exists s', read_image VERSION ks v a s (ser_total o) = Ok s' /\ loaded s' /\ vals (snd s') = add_val (vals (snd s)) v a o.
  Proof.
    intros Ha [n c] o Hs (HoV & Hon & Hov). unfold loaded in Hs. cbn [fst snd] in Hs. unfold read_image.
    rewrite (image_roundtrip o _ Hon (proj2 (ser_image_spec o _) (conj Hov eq_refl))). cbn [bind].
    unfold add_loaded. rewrite version_gt_1_1.
    assert (Eadd : images_add VERSION c v a (n, o) = Ok (place v a (n, o) c)).
    { apply andb_true_iff in Ha. destruct Ha as [H1 H2]. apply images_add_spec.
      split; [exact H1|]. split; [apply negb_true_iff; exact H2|]. split; [|reflexivity].
      intros _. apply collides_false. intros cur Hin Hid. exact (HP _ _ (proj1 (Hs cur Hin)) HoV Hid). }
    rewrite Eadd. cbn [bind]. eexists. split; [reflexivity|]. cbn [fst snd]. split.
    - intros x. apply (images_add_all (fun x => In (snd x) V /\ (fst x < S n)%nat) _ _ _ _ _ _ Eadd); [|split; [exact HoV|apply Nat.lt_succ_diag_r]].
      intros y Hy. destruct (Hs y Hy). auto.
    - apply vals_place. intros x Hx E. destruct (Hs x Hx) as [_ Hlt]. lia.
  Qed.

  Lemma read_cell_sim ks v s ao : loaded s -> good_cell ao ->
    exists s', read_cell VERSION ks v s (fst ao, PList (map ser_total (snd ao))) = Ok s' /\ loaded s' /\
               vals (snd s') = fold_left (fun vc o => add_val vc v (fst ao) o) (snd ao) (vals (snd s)).
  Proof.
    intros Hs [Ha Hg].
    exact (fold_bind_sim loaded (fun s => vals (snd s)) _ _ ser_total good_obj (read_image_sim ks v (fst ao) Ha) (snd ao) s Hs Hg).
  Qed.

  Lemma read_variant_sim s va : loaded s -> good_variant va ->
    exists s', read_variant VERSION s (fst va, PDict (ser_arches_v (snd va))) = Ok s' /\ loaded s' /\
               vals (snd s') = fold_left (fun vc p => add_val vc (fst va) (fst p) (snd p)) (pairs_of (snd va)) (vals (snd s)).
  Proof.
    intros Hs Hg. unfold pairs_of. rewrite fold_left_flat_map_map.
    exact (fold_bind_sim loaded (fun s => vals (snd s)) _ _ (fun ao => (fst ao, PList (map ser_total (snd ao)))) good_cell
             (read_cell_sim _ (fst va)) (snd va) s Hs Hg).
  Qed.

  Lemma load_variants vc s : loaded s -> (forall va, In va vc -> good_variant va) ->
    exists s', fold_left (fun acc va => do s <- acc; read_variant VERSION s va) (ser_vc vc) (Ok s) = Ok s' /\ loaded s' /\
               vals (snd s') = add_all (vals (snd s)) (triples_of vc).
  Proof.
    intros Hs Hg. unfold add_all, triples_of. rewrite fold_left_flat_map_map.
    exact (fold_bind_sim loaded (fun s => vals (snd s)) _ _ (fun va => (fst va, PDict (ser_arches_v (snd va)))) good_variant
             read_variant_sim vc s Hs Hg).
  Qed.
End Reload.

Lemma sort_objs_nonempty o os : sort_objs (o :: os) <> [].
Proof. exact (sortl_by_nonempty okey true o os). Qed.

Lemma in_canon_arches a os' arches :
  In (a, os') (canon_arches arches) -> exists os, In (a, os) arches /\ os <> [] /\ os' = sort_objs os.
Proof.
  intros H. apply in_flat_map in H. destruct H as ([a0 os0] & Hin & H). cbn [fst snd] in H.
  destruct os0 as [|o os0]; [destruct H|]. destruct H as [E|[]]. injection E as <- <-.
  exists (o :: os0). split; [exact Hin|]. split; [discriminate|reflexivity].
Qed.

Lemma in_canon v ca vc : In (v, ca) (canon vc) -> exists arches, In (v, arches) vc /\ ca = canon_arches arches /\ ca <> [].
Proof.
  intros H. apply in_flat_map in H. destruct H as ([v0 ar0] & Hin & H). cbn [fst snd] in H.
  destruct (canon_arches ar0) as [|x l] eqn:E; [destruct H|]. destruct H as [E'|[]]. injection E' as <- <-.
  exists ar0. split; [exact Hin|]. split; [symmetry; exact E|discriminate].
Qed.

Lemma canon_canonical vc :
  NoDup (keys vc) -> (forall v arches, In (v, arches) vc -> NoDup (keys arches)) -> canonical (canon vc).
Proof.
  intros H1 H2. split.
  - apply NoDup_keys_flat_map; [|exact H1]. intros va. destruct (canon_arches (snd va)); eauto.
  - intros v ca Hin. destruct (in_canon _ _ _ Hin) as (ar & Hin' & -> & Hne). split; [exact Hne|]. split.
    + apply NoDup_keys_flat_map; [|exact (H2 v ar Hin')]. intros ao. destruct (snd ao); eauto.
    + intros a os' Hin2. destruct (in_canon_arches _ _ _ Hin2) as (os & _ & Hne' & ->). destruct os; [congruence|apply sort_objs_nonempty].
Qed.

Record wf_images (st : images_st) : Prop := {
  wf_compose : compose_normal (im_compose st);
  wf_normal : forall x, In x (all_images (im_cells st)) -> image_normal (snd x);
  wf_inv : Inv (im_cells st);
  wf_arch : keys2_ok (im_cells st);
  wf_keys : NoDup (keys (im_cells st));
  wf_akeys : forall v arches, In (v, arches) (im_cells st) -> NoDup (keys arches) }.

Lemma manifest_reload st doc :
  wf_images st -> ser_images st = Ok doc ->
  exists st', deser_images doc = Ok st' /\ im_compose st' = im_compose st /\
              vals (im_cells st') = canon (vals (im_cells st)) /\
              forall x, In x (all_images (im_cells st')) -> In (snd x) (map snd (all_images (im_cells st))).
Proof.
  intros W H. apply ser_images_spec in H. destruct H as (cj & Ec & Hvalid & ->).
  set (cells := im_cells st) in *. set (V := map snd (all_images cells)). set (cvc := canon (vals cells)).
  assert (Hcan : canonical cvc).
  { apply canon_canonical; [unfold vals; rewrite keys_map_snd; exact (wf_keys st W)|].
    intros v arv Hin. destruct (in_map_snd _ _ _ _ Hin) as (ar & Hin' & ->). rewrite keys_map_snd. exact (wf_akeys st W v ar Hin'). }
  assert (HP : forall x y, In x V -> In y V -> same_identity x y = true -> same_checksums x y = true).
  { intros x y Hx Hy. apply in_map_iff in Hx, Hy. destruct Hx as (i & <- & Hi), Hy as (j & <- & Hj). exact (wf_inv st W i j Hi Hj). }
  assert (Hgood : forall va, In va cvc -> good_variant V va).
  { intros [v ca] Hin [a os'] Hin2. cbn [snd] in Hin2. destruct (in_canon _ _ _ Hin) as (arv & Hin' & -> & _).
    destruct (in_canon_arches _ _ _ Hin2) as (os & Hin3 & _ & ->).
    destruct (in_map_snd _ _ _ _ Hin') as (ar & Hin4 & ->). destruct (in_map_snd _ _ _ _ Hin3) as (imgs & Hin5 & ->).
    split; [exact (wf_arch st W v ar Hin4 a imgs Hin5)|]. cbn [snd].
    intros o Ho. rewrite sort_objs_eq in Ho. apply sortl_by_In in Ho.
    apply in_map_iff in Ho. destruct Ho as (x & <- & Hx).
    assert (Hall : In x (all_images cells)) by (apply in_all_images; exists v, ar, a, imgs; auto).
    split; [exact (in_map snd _ x Hall)|]. split; [exact (wf_normal st W x Hall)|exact (Hvalid x Hall)]. }
  destruct (load_variants V HP cvc (O, []) (loaded_init V) Hgood)
    as ([n' c'] & Eload & HS & Hvals).
  exists {| im_version := current_version; im_compose := im_compose st; im_cells := c' |}.
  split; [|split; [reflexivity|split; [|exact (fun x Hx => proj1 (HS x Hx))]]].
  - rewrite deser_images_eq. unfold images_mtype. rewrite deser_header_ser. cbn [bind snd].
    erewrite dget_assoc by reflexivity. cbn [bind].
    erewrite (deser_compose_at _ cj); [|reflexivity|exact (wf_compose st W)|exact Ec]. cbn [bind].
    erewrite dget_assoc by reflexivity. cbn [bind].
    exact (bind_ok_intro _ _ _ _ Eload eq_refl).
  - cbn [im_cells snd] in *. rewrite Hvals. exact (rebuild cvc Hcan).
Qed.

Lemma canon_arches_idem arches : canon_arches (canon_arches arches) = canon_arches arches.
Proof.
  apply flat_map_idem. intros [a os] y Hy. cbn [fst snd] in Hy. destruct os as [|o os]; [destruct Hy|]. destruct Hy as [<-|[]].
  cbn [fst snd]. destruct (sort_objs (o :: os)) eqn:E; [destruct (sort_objs_nonempty o os E)|]. rewrite <- E.
  rewrite (sort_objs_eq (o :: os)), sort_objs_eq, sortl_by_sorted_id; [reflexivity|apply sortl_by_sorted].
Qed.

Lemma canon_idem vc : canon (canon vc) = canon vc.
Proof.
  apply flat_map_idem. intros [v ar] y Hy. cbn [fst snd] in Hy. destruct (canon_arches ar) eqn:E; [destruct Hy|]. destruct Hy as [<-|[]].
  cbn [fst snd]. rewrite <- E, canon_arches_idem, E. reflexivity.
Qed.

Theorem images_manifest_second_write st doc :
  wf_images st -> ser_images st = Ok doc ->
  exists st', deser_images doc = Ok st' /\ ser_images st' = Ok doc.
Proof.
  intros W H. destruct (manifest_reload st doc W H) as (st' & Hd & Hc & Hvals & Hsub). exists st'. split; [exact Hd|].
  apply ser_images_spec in H. destruct H as (cj & Ec & Hvalid & ->). apply ser_images_spec. exists cj.
  rewrite Hc, Hvals, canon_idem. split; [exact Ec|]. split; [|reflexivity].
  (* every re-read image is one of the originals, hence valid *)
  intros x Hx. apply Hsub, in_map_iff in Hx. destruct Hx as (y & E & Hy). rewrite <- E. exact (Hvalid y Hy).
Qed.

Definition keys_wf (c : cells_t) : Prop := NoDup (keys c) /\ forall v arches, In (v, arches) c -> NoDup (keys arches).

Lemma keys_wf_add vt c v a img c' : keys_wf c -> images_add vt c v a img = Ok c' -> keys_wf c'.
Proof.
  intros [H1 H2] H. apply images_add_spec in H. destruct H as (_ & _ & _ & ->). split; [apply NoDup_keys_upd; exact H1|].
  intros v' ar' Hin. apply in_upd in Hin. destruct Hin as [[-> ->]|Hin]; [|exact (H2 v' ar' Hin)].
  apply NoDup_keys_upd. destruct (assoc v c) as [ar|] eqn:E; [exact (H2 v ar (assoc_In _ _ _ E))|constructor].
Qed.

Theorem reach_wf vt compose ops :
  vt_leb (1, 1) vt = true -> compose_normal compose -> (forall op, In op ops -> image_normal (snd (snd op))) ->
  wf_images {| im_version := current_version; im_compose := compose; im_cells := fold_left (apply_add vt) ops [] |}.
Proof.
  intros Hvt Hc Hn.
  assert (G : (fun c => keys_wf c /\ forall x, In x (all_images c) -> image_normal (snd x)) (fold_left (apply_add vt) ops [])).
  { apply fold_left_inv; [|split; [split; [constructor|intros v ar []]|intros x []]].
    intros c op Hop [Hk Hi]. apply apply_add_pres; [|auto]. intros c' E. split; [exact (keys_wf_add _ _ _ _ _ _ Hk E)|].
    exact (images_add_all (fun x => image_normal (snd x)) _ _ _ _ _ _ E Hi (Hn op Hop)). }
  destruct G as [[K1 K2] K3].
  constructor; cbn [im_compose im_cells]; [exact Hc|exact K3|exact (reach_inv vt ops Hvt)|exact (images_reach_arch_ok vt ops)|exact K1|exact K2].
Qed.

(* the example files one unified image (same object id) under two variants *)
Definition ex_img (path : str) (n : Z) (unified : bool) : obj :=
  mk_image (PStr path) (PInt 1440000000) (PInt 8589934597) PNone (PStr (F"dvd")) (PStr (F"iso")) (PStr (F"x86_64")) (PInt n) (PInt 2)
           (PDict [(F"sha256", PStr (F"aa"))]) PNone (PBool true) (PStr (F"Server")) (PBool unified)
           (if unified then PList [PStr (F"Client")] else PList []).
Definition ex_ops : list (str * str * image) :=
  [(F"Server", F"x86_64", (1%nat, ex_img (F"Server/x86_64/iso/b.iso") 2 false));
   (F"Server", F"x86_64", (2%nat, ex_img (F"Server/x86_64/iso/a.iso") 1 true));
   (F"Client", F"x86_64", (2%nat, ex_img (F"Server/x86_64/iso/a.iso") 1 true))].
Definition ex_compose : obj :=
  mk_compose (PStr (F"Fedora-22-20150522.n.0")) (PStr (F"nightly")) (PStr (F"20150522")) (PInt 0) PNone (PBool false).

Example manifest_roundtrip_nonvacuous :
  let st := {| im_version := current_version; im_compose := ex_compose; im_cells := fold_left (apply_add VERSION) ex_ops [] |} in
  wf_images st /\ exists doc, ser_images st = Ok doc /\ length (all_images (im_cells st)) = 3%nat.
Proof.
  split.
  - apply reach_wf; [vm_compute; reflexivity| |].
    + exists (PStr (F"Fedora-22-20150522.n.0")), (PStr (F"nightly")), (PStr (F"20150522")), (PInt 0), PNone, false.
      split; [reflexivity|]. split; [left; reflexivity|reflexivity].
    + intros op [<-|[<-|[<-|[]]]]; cbn [snd ex_img]; do 15 eexists; (split; [reflexivity|]); intros [=]; reflexivity.
  - eexists. split; [vm_compute; reflexivity|vm_compute; reflexivity].
Qed.
