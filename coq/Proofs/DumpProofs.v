(* C18: dump writes the destination only after validation and serialisation have succeeded *)
From PM Require Import Base.PyVal Base.Json Model.Common Model.Dump.

Theorem dump_atomic ser f p e : snd (dump_path ser f p) = Err e -> fst (dump_path ser f p) = f.
Proof. unfold dump_path. destruct ser; cbn; [discriminate|reflexivity]. Qed.

Theorem dump_ok_writes ser f p :
  snd (dump_path ser f p) = Ok tt ->
  exists d, ser = Ok d /\ assoc p (fst (dump_path ser f p)) = Some (print_json d) /\
            forall q, q <> p -> assoc q (fst (dump_path ser f p)) = assoc q f.
Proof.
  unfold dump_path. destruct ser as [d|e]; cbn [fst snd]; [|discriminate]. intros _. exists d.
  split; [reflexivity|]. split; [apply assoc_set_same|]. intros q Hq. apply assoc_set_other. congruence.
Qed.

