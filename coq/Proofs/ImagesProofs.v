(* C09: Images.add - where it puts an image, when it refuses, the identity/checksum invariant over all add histories - and
   the identity of an image computed from its serialised dictionary *)
From PM Require Import Base.PyVal Base.Obj Model.Common Model.Images Model.Manifests Proofs.Monad Proofs.ListLemmas
  Proofs.AssocLemmas Proofs.PyValProofs Gen.Tables Gen.Validators.

(* table obligation: the identity attributes are the documented seven *)
Definition documented7 : list str :=
  [F"subvariant"; F"type"; F"format"; F"arch"; F"disc_number"; F"unified"; F"additional_variants"].

Definition unique_attrs_ok : bool :=
  forallb (fun a => mem_str a documented7) UNIQUE_IMAGE_ATTRIBUTES &&
  forallb (fun a => mem_str a UNIQUE_IMAGE_ATTRIBUTES) documented7 &&
  Nat.eqb (length UNIQUE_IMAGE_ATTRIBUTES) 7.

Lemma unique_attrs_ok_holds : unique_attrs_ok = true.
Proof. vm_compute. reflexivity. Qed.

Lemma unique_attrs_documented a : In a UNIQUE_IMAGE_ATTRIBUTES <-> In a documented7.
Proof.
  pose proof unique_attrs_ok_holds as H. unfold unique_attrs_ok in H. rewrite !andb_true_iff in H. destruct H as [[H1 H2] _].
  split; [exact (forallb_mem_incl _ _ H1 a)|exact (forallb_mem_incl _ _ H2 a)].
Qed.

Theorem identify_spec a b :
  same_identity a b = true <->
  forall f, In f documented7 -> py_eq (identify_attr (getf a) f) (identify_attr (getf b) f) = true.
Proof.
  unfold same_identity, identify_obj. rewrite py_eq_true, !norm_list, !map_map. split.
  - intros H f Hf. apply (f_equal (fun v => match v with PList l => l | _ => [] end)) in H.
    apply py_eq_true. exact (ext_in_map H f (proj2 (unique_attrs_documented f) Hf)).
  - intros H. f_equal. apply map_ext_in. intros f Hf. apply py_eq_true, H, unique_attrs_documented, Hf.
Qed.

Lemma in_all_images x (c : cells_t) :
  In x (all_images c) <-> exists v arches a imgs, In (v, arches) c /\ In (a, imgs) arches /\ In x imgs.
Proof.
  unfold all_images. rewrite in_flat_map. split.
  - intros ([v arches] & Hv & H). apply in_flat_map in H. destruct H as ([a imgs] & Ha & H). exists v, arches, a, imgs. auto.
  - intros (v & arches & a & imgs & Hv & Ha & H). exists (v, arches). split; [exact Hv|]. apply in_flat_map. exists (a, imgs). auto.
Qed.

(* a cell is a set of objects: an image whose id is there already is not stored again *)
Lemma set_add_eq img l : set_add img l = if existsb (fun x => Nat.eqb (fst x) (fst img)) l then l else l ++ [img].
Proof.
  induction l as [|x l IH]; cbn [set_add existsb app]; [reflexivity|].
  destruct (Nat.eqb (fst x) (fst img)); cbn [orb]; [reflexivity|]. rewrite IH. destruct (existsb _ _); reflexivity.
Qed.

Lemma in_set_add x img l : In x (set_add img l) -> In x l \/ x = img.
Proof. rewrite set_add_eq. destruct (existsb _ _); [auto|]. intros H. apply in_app_or in H. destruct H as [H|[H|[]]]; auto. Qed.

Lemma set_add_incl img l : incl l (set_add img l).
Proof. rewrite set_add_eq. destruct (existsb _ _); [apply incl_refl|apply incl_appl, incl_refl]. Qed.

Lemma set_add_in img l : In (fst img) (map fst (set_add img l)).
Proof.
  rewrite set_add_eq. destruct (existsb _ _) eqn:E.
  - apply existsb_exists in E. destruct E as (x & Hx & E). apply Nat.eqb_eq in E. rewrite <- E. apply in_map. exact Hx.
  - rewrite map_app. apply in_or_app. right. left. reflexivity.
Qed.

Lemma set_add_fresh img l : (forall x, In x l -> fst x <> fst img) -> set_add img l = l ++ [img].
Proof.
  intros H. rewrite set_add_eq. destruct (existsb _ _) eqn:E; [|reflexivity].
  apply existsb_exists in E. destruct E as (x & Hx & E). apply Nat.eqb_eq in E. destruct (H x Hx E).
Qed.

Definition place (v a : str) (img : image) (c : cells_t) : cells_t :=
  upd v (fun o => upd a (fun o => set_add img (dflt [] o)) (dflt [] o)) c.

Lemma in_sub_all_images x (c : cells_t) v a : In x (sub (sub c v) a) -> In x (all_images c).
Proof.
  intros H. apply in_sub in H. destruct H as (imgs & Ha & H). apply in_sub in Ha. destruct Ha as (arches & Hv & Ha).
  apply in_all_images. exists v, arches, a, imgs. auto.
Qed.

Lemma in_place x v a img c : In x (all_images (place v a img c)) -> In x (all_images c) \/ x = img.
Proof.
  intros H. apply in_all_images in H. destruct H as (v' & arches & a' & imgs & Hv & Ha & H).
  apply in_upd in Hv. destruct Hv as [[-> ->]|Hv]; [|left; apply in_all_images; exists v', arches, a', imgs; auto].
  apply in_upd in Ha. destruct Ha as [[-> ->]|Ha].
  - apply in_set_add in H. destruct H as [H|H]; [left; exact (in_sub_all_images x c v a H)|right; exact H].
  - left. apply in_sub in Ha. destruct Ha as (arches & Hv & Ha). apply in_all_images. exists v, arches, a', imgs. auto.
Qed.

Lemma images_add_spec vt c v a img c' :
  images_add vt c v a img = Ok c' <->
  mem_str a RPM_ARCHES = true /\ is_src_arch a = false /\ (vt_leb (1, 1) vt = true -> collides c (snd img) = false) /\
  c' = place v a img c.
Proof.
  unfold images_add. split.
  - intros H. inv_guard H as G1. inv_guard H as G2. inv_guard H as G3. injection H as <-.
    split; [exact G1|]. split; [apply negb_true_iff; exact G2|]. split; [|reflexivity].
    intros Hv. rewrite Hv in G3. apply negb_true_iff in G3. exact G3.
  - intros (H1 & H2 & H3 & ->). rewrite H1, H2. cbn [negb guard bind].
    destruct (vt_leb (1, 1) vt); cbn [andb]; [rewrite (H3 eq_refl)|]; reflexivity.
Qed.

Lemma images_add_all (Q : image -> Prop) vt c v a img c' :
  images_add vt c v a img = Ok c' -> (forall x, In x (all_images c) -> Q x) -> Q img -> forall x, In x (all_images c') -> Q x.
Proof.
  intros H Hc Hi x Hx. apply images_add_spec in H. destruct H as (_ & _ & _ & ->).
  apply in_place in Hx. destruct Hx as [Hx| ->]; auto.
Qed.

(* the loader files an image through add, a source image of a <= 1.1 document once per binary architecture of its
   variant: whatever add preserves, loading preserves *)
Definition refile (vt : N * N) (v : str) (img : image) (c : cells_t) (a : str) : result cells_t :=
  if str_eqb a s_src then Ok c else images_add vt c v a img.

Section Pres.
  Variables (P : cells_t -> Prop) (vt : N * N) (v : str) (img : image).
  Hypothesis Hadd : forall c a c', P c -> images_add vt c v a img = Ok c' -> P c'.

  Lemma refile_pres c a c' : P c -> refile vt v img c a = Ok c' -> P c'.
  Proof. unfold refile. intros Hc H. destruct (str_eqb a s_src); [apply Ok_inj in H; subst c'; exact Hc|exact (Hadd _ _ _ Hc H)]. Qed.

  Lemma add_loaded_pres ks c a c' : P c -> add_loaded vt ks c v a img = Ok c' -> P c'.
  Proof.
    intros Hc H. unfold add_loaded in H.
    destruct (vt_leb vt (1, 1)); [|exact (Hadd _ _ _ Hc H)]. destruct (str_eqb a s_src); [|exact (Hadd _ _ _ Hc H)].
    revert H. apply (fold_bind_inv P (refile vt v img)); [exact refile_pres|exact Hc].
  Qed.
End Pres.

(* C09: no two images of one identity with different checksums *)
Definition Inv (c : cells_t) : Prop :=
  forall i j, In i (all_images c) -> In j (all_images c) ->
  same_identity (snd i) (snd j) = true -> same_checksums (snd i) (snd j) = true.

Lemma collides_false c o :
  collides c o = false <->
  forall cur, In cur (all_images c) -> same_identity (snd cur) o = true -> same_checksums (snd cur) o = true.
Proof.
  unfold collides. split.
  - intros H cur Hin Hid. destruct (same_checksums (snd cur) o) eqn:E; [reflexivity|].
    rewrite <- H. apply existsb_exists. exists cur. rewrite Hid, E. auto.
  - intros H. destruct (existsb _ _) eqn:E; [|reflexivity]. apply existsb_exists in E. destruct E as (cur & Hin & Hc).
    apply andb_true_iff in Hc. destruct Hc as [Hid Hck]. rewrite (H cur Hin Hid) in Hck. discriminate.
Qed.

Theorem add_preserves_inv vt c v a img c' :
  vt_leb (1, 1) vt = true -> Inv c -> images_add vt c v a img = Ok c' -> Inv c'.
Proof.
  intros Hvt HI H. apply images_add_spec in H. destruct H as (_ & _ & Hc & ->).
  pose proof (proj1 (collides_false _ _) (Hc Hvt)) as Hnc.
  intros i j Hi Hj Hid. apply in_place in Hi, Hj. destruct Hi as [Hi| ->], Hj as [Hj| ->].
  - exact (HI i j Hi Hj Hid).
  - exact (Hnc i Hi Hid).
  - unfold same_checksums, same_identity in *. rewrite py_eq_sym. apply (Hnc j Hj). rewrite py_eq_sym. exact Hid.
  - apply py_eq_refl.
Qed.

Lemma inv_empty : Inv [].
Proof. intros i j []. Qed.

Definition apply_add (vt : N * N) (c : cells_t) (op : str * str * image) : cells_t :=
  match images_add vt c (fst (fst op)) (snd (fst op)) (snd op) with Ok c' => c' | Err _ => c end.

Lemma apply_add_pres (P : cells_t -> Prop) vt c op :
  (forall c', images_add vt c (fst (fst op)) (snd (fst op)) (snd op) = Ok c' -> P c') -> P c -> P (apply_add vt c op).
Proof. intros Hadd Hc. unfold apply_add. destruct (images_add vt c _ _ _) as [c'|e]; [exact (Hadd c' eq_refl)|exact Hc]. Qed.

Theorem reach_inv vt ops : vt_leb (1, 1) vt = true -> Inv (fold_left (apply_add vt) ops []).
Proof.
  intros Hvt. apply fold_left_inv; [|exact inv_empty].
  intros c op _ Hc. apply apply_add_pres; [|exact Hc]. intros c'. exact (add_preserves_inv vt c _ _ _ c' Hvt Hc).
Qed.

(* the one validator identify_ser needs, as it must stand in the regenerated table: it is what makes a non-unified image
   have no additional variants *)
Definition merges_variants_body : vmethod :=
  VBody [AssertType (F"additional_variants") [TList];
         VIf (CAnd (CTruthy (F"additional_variants")) (CNot (CTruthy (F"unified")))) [VRaise ValueError]].

Lemma merges_variants_present :
  assoc (F"_validate_merges_variants") (validators_of image_cls) = Some merges_variants_body.
Proof. vm_compute. reflexivity. Qed.

Lemma valid_image_addl o :
  validate image_cls o = Ok tt -> truthy (getf o (F"unified")) = false -> truthy (getf o (F"additional_variants")) = false.
Proof.
  intros Hv Hu. unfold validate, validate_with, run_validators in Hv.
  pose proof merges_variants_present as Hm. apply assoc_In in Hm.
  pose proof (iterM_all _ _ Hv _ Hm) as H. cbn [snd run_method merges_variants_body run_vexprs iterM] in H.
  destruct (run_vexpr o (AssertType _ _)) as [[]|]; cbn [bind] in H; [|discriminate].
  cbn [run_vexpr eval_cond bind] in H. rewrite Hu in H.
  destruct (truthy (getf o (F"additional_variants"))); [discriminate|reflexivity].
Qed.

Definition base13 : list str :=
  [F"path"; F"mtime"; F"size"; F"volume_id"; F"type"; F"format"; F"arch"; F"disc_number"; F"disc_count";
   F"checksums"; F"implant_md5"; F"bootable"; F"subvariant"].

Definition ser_fields (o : obj) : list (str * pyval) :=
  let row := map (fun f => (f, getf o f)) in
  if truthy (getf o (F"unified")) then row (base13 ++ [F"unified"; F"additional_variants"]) else row base13.
Definition ser_total (o : obj) : pyval := PDict (ser_fields o).

Lemma ser_image_spec o d : ser_image o = Ok d <-> validate image_cls o = Ok tt /\ d = ser_total o.
Proof.
  unfold ser_image. destruct (validate image_cls o) as [[]|e]; cbn [bind].
  - split; [intros H; apply Ok_inj in H; subst d; split; reflexivity|intros [_ ->]; reflexivity].
  - split; [discriminate|intros [H _]; discriminate].
Qed.

(* an attribute missing from the dictionary reads as None, which the two defaulted attributes turn into the same default
   as a falsy value of the object *)
Lemma identify_attr_default (g g' : str -> pyval) a :
  g' a = g a \/ (g' a = PNone /\ truthy (g a) = false /\ (a = F"unified" \/ a = F"additional_variants")) ->
  identify_attr g' a = identify_attr g a.
Proof.
  intros [E|(E & T & Ha)]; unfold identify_attr; rewrite E; [reflexivity|]. rewrite T.
  destruct Ha as [->| ->]; reflexivity.
Qed.

Theorem identify_ser o d :
  ser_image o = Ok (PDict d) -> identify_dict d = identify_obj o.
Proof.
  intros H. apply ser_image_spec in H. destruct H as [Hv H]. injection H as ->. unfold ser_fields.
  unfold identify_dict, identify_obj. apply map_ext_in. intros a Ha. apply unique_attrs_documented in Ha.
  apply identify_attr_default.
  destruct (truthy (getf o (F"unified"))) eqn:Eu; rewrite assoc_tabulate;
    destruct Ha as [<-|[<-|[<-|[<-|[<-|[<-|[<-|[]]]]]]]]; try (left; reflexivity); right.
  - split; [reflexivity|]. split; [exact Eu|left; reflexivity].
  - split; [reflexivity|]. split; [exact (valid_image_addl o Hv Eu)|right; reflexivity].
Qed.
