(* C15: create_compose_id against the hand decoder get_date_type_respin (the last window of 8 digits, then type suffix
   and respin), its prefix, and its acceptance by the library's own regenerated compose-id pattern. *)
From PM Require Import Model.ComposeId Proofs.ListLemmas Proofs.StrLemmas Proofs.StrDec Proofs.RegexSem Gen.Regexes Gen.Tables.
Open Scope nat_scope.

Lemma win8_short s : length s < 8 -> win8 s = false.
Proof. intros H. unfold win8. apply Nat.leb_gt in H. rewrite H. reflexivity. Qed.

Lemma find_last_short s : length s < 8 -> find_last s = None.
Proof.
  induction s as [|x s IH]; intros H; [reflexivity|]. cbn [find_last].
  rewrite IH by (cbn in H; lia). rewrite win8_short by exact H. reflexivity.
Qed.

Lemma win8_nondigit u c v : length u < 8 -> is_digit c = false -> win8 (u ++ c :: v) = false.
Proof.
  intros Hu Hc. unfold win8. rewrite firstn_app, (firstn_all2 u) by lia.
  destruct (8 - length u) as [|k] eqn:E; [lia|]. cbn [firstn]. rewrite forallb_app. cbn [forallb].
  rewrite Hc. cbn. rewrite !andb_false_r. reflexivity.
Qed.

(* no window starts in a run of fewer than 8 characters that ends in a non-digit *)
Lemma peel_short u c v : length u < 8 -> is_digit c = false -> find_last (u ++ c :: v) = find_last v.
Proof.
  intros Hu Hc. induction u as [|h u IH]; cbn [app find_last]; [|rewrite IH by (cbn in Hu; lia)];
    (destruct (find_last v); [reflexivity|]).
  - change (c :: v) with ([] ++ c :: v). rewrite win8_nondigit by assumption. reflexivity.
  - change (h :: u ++ c :: v) with ((h :: u) ++ c :: v). rewrite win8_nondigit by assumption. reflexivity.
Qed.

Lemma peel_nondigit c v : is_digit c = false -> find_last (c :: v) = find_last v.
Proof. apply (peel_short [] c v). cbn. lia. Qed.

Lemma peel_nondigits u v : forallb (fun x => negb (is_digit x)) u = true -> find_last (u ++ v) = find_last v.
Proof.
  induction u as [|h u IH]; intros Hu; [reflexivity|]. cbn [forallb] in Hu. apply andb_true_iff in Hu.
  destruct Hu as [Hh Hu]. apply negb_true_iff in Hh. cbn [app]. rewrite (peel_nondigit _ _ Hh). exact (IH Hu).
Qed.

Lemma tl_window date c v : length date = 8 -> is_digit c = false -> find_last (tl (date ++ c :: v)) = find_last v.
Proof. intros Hl Hc. destruct date as [|d0 date]; [discriminate|]. cbn [app tl]. apply peel_short; [cbn in Hl; lia|exact Hc]. Qed.

Lemma find_last_prefix a w :
  win8 w = true -> find_last (tl w) = None -> find_last (a ++ w) = Some (firstn 8 w, skipn 8 w).
Proof.
  intros Hw Ht. induction a as [|h a IH].
  - destruct w as [|x w]; [discriminate|]. cbn [app find_last]. cbn [tl] in Ht. rewrite Ht, Hw. reflexivity.
  - cbn [app find_last]. rewrite IH. reflexivity.
Qed.

Lemma first_line_nonl s : ~ In c_nl s -> first_line s = s.
Proof.
  intros H. unfold first_line. rewrite <- (app_nil_r s) at 1.
  rewrite span_all; [reflexivity|apply forallb_neq; exact H|exact I].
Qed.

Lemma gdtr_window pre date tail :
  ~ In c_nl (pre ++ date ++ tail) -> length date = 8 -> forallb is_digit date = true ->
  find_last (tl (date ++ tail)) = None ->
  find_last (first_line (pre ++ date ++ tail)) = Some (date, tail).
Proof.
  intros Hnl Hlen Hdig Hnone. rewrite (first_line_nonl _ Hnl), (find_last_prefix pre _) by
    (try exact Hnone; unfold win8; rewrite (firstn_app_exact 8 date tail Hlen), Hdig, app_length, Hlen; reflexivity).
  rewrite (firstn_app_exact 8 date tail Hlen), (skipn_app_exact 8 date tail Hlen). reflexivity.
Qed.

(* obligation on the regenerated tables: every suffix the encoder can write is one the decoder maps back to the same type *)
Definition sfx_entry_ok (p : str * option str) : bool :=
  match snd p with
  | None => true
  | Some [] => str_eqb (fst p) production
  | Some (c :: lw) =>
      N.eqb c c_dot && match lw with [] => false | _ => true end && forallb is_lower lw &&
      match assoc lw COMPOSE_TYPE_SUFFIXES with Some t => str_eqb t (fst p) | None => false end
  end.

Lemma enc_dec_entry t sfx :
  assoc t COMPOSE_TYPE_SUFFIX_FN = Some (Some sfx) ->
  (sfx = [] /\ t = production) \/
  (exists lw, sfx = c_dot :: lw /\ lw <> [] /\ forallb is_lower lw = true /\ assoc lw COMPOSE_TYPE_SUFFIXES = Some t).
Proof.
  assert (Hok : forallb sfx_entry_ok COMPOSE_TYPE_SUFFIX_FN = true) by (vm_compute; reflexivity).
  intros H. apply assoc_In in H. rewrite forallb_forall in Hok. specialize (Hok _ H). cbn [sfx_entry_ok fst snd] in Hok.
  destruct sfx as [|c lw]; [left; split; [reflexivity|apply str_eqb_eq; exact Hok]|right].
  rewrite !andb_true_iff, N.eqb_eq in Hok. destruct Hok as [[[-> H1] H2] H3]. exists lw.
  destruct (assoc lw COMPOSE_TYPE_SUFFIXES) as [t'|]; [|discriminate]. apply str_eqb_eq in H3. subst t'.
  repeat split; [|exact H2]. destruct lw; discriminate.
Qed.

Lemma digits_not_lower r : forallb is_digit r = true -> r <> [] -> span is_lower r = ([], r).
Proof.
  intros H Hn. destruct r as [|x r]; [congruence|]. cbn [forallb] in H. apply andb_true_iff in H. destruct H as [Hx _].
  cbn [span]. replace (is_lower x) with false; [reflexivity|]. unfold is_digit, is_lower in *. lia.
Qed.

Lemma lower_not_digit lw : forallb is_lower lw = true -> forallb (fun x => negb (is_digit x)) lw = true.
Proof.
  intros H. apply forallb_forall. intros x Hx. rewrite forallb_forall in H. specialize (H x Hx).
  unfold is_digit, is_lower in *. lia.
Qed.

Lemma decode_type_digits r : forallb is_digit r = true -> r <> [] -> decode_type (c_dot :: r) = (None, c_dot :: r).
Proof. intros H Hn. unfold decode_type, c_dot. rewrite (digits_not_lower r H Hn). reflexivity. Qed.

Lemma decode_type_lower lw rest :
  lw <> [] -> forallb is_lower lw = true -> (match rest with [] => True | y :: _ => is_lower y = false end) ->
  decode_type (c_dot :: lw ++ rest) = (Some lw, rest).
Proof.
  intros Hn H Hr. unfold decode_type, c_dot. rewrite (span_all is_lower lw rest H Hr).
  destruct lw; [congruence|reflexivity].
Qed.

Lemma decode_respin_show n : decode_respin (c_dot :: show_dec n) = n.
Proof.
  unfold decode_respin, c_dot. rewrite <- (app_nil_r (show_dec n)) at 1. rewrite (span_all is_digit _ [] (show_dec_digits n) I).
  pose proof (show_dec_nonempty n) as Hn. destruct (show_dec n) eqn:E; [congruence|]. rewrite <- E. apply parse_show_dec.
Qed.

Lemma decode_tail date sfx respin ty pre :
  length date = 8 -> forallb is_digit date = true -> (respin < 10 ^ 7)%N ->
  ((sfx = [] /\ ty = production) \/
   (exists lw, sfx = c_dot :: lw /\ lw <> [] /\ forallb is_lower lw = true /\ assoc lw COMPOSE_TYPE_SUFFIXES = Some ty)) ->
  ~ In c_nl pre ->
  get_date_type_respin (pre ++ date ++ sfx ++ c_dot :: show_dec respin) = Ok (Some (date, ty, respin)).
Proof.
  intros Hlen Hdig Hr Hsfx Hpre. unfold get_date_type_respin.
  (* below 10^7 the respin has at most seven digits, so no window of eight digits lies after the date and the last one found is the date *)
  pose proof (show_dec_len respin 7 ltac:(lia) Hr) as Hrl.
  assert (Hr_nl : ~ In c_nl (c_dot :: show_dec respin)) by (intros [H|H]; [discriminate|exact (show_dec_notin c_nl _ eq_refl H)]).
  pose proof (forallb_notin _ _ c_nl Hdig eq_refl) as Hd_nl.
  destruct Hsfx as [[-> ->]|(lw & -> & Hlwn & Hlw & Has)]; cbn [app].
  - rewrite gdtr_window; try assumption.
    + rewrite (decode_type_digits _ (show_dec_digits _) (show_dec_nonempty _)), decode_respin_show. reflexivity.
    + repeat apply not_in_app; assumption.
    + rewrite tl_window by (assumption || reflexivity). apply find_last_short. lia.
  - rewrite gdtr_window; try assumption.
    + rewrite (decode_type_lower lw (c_dot :: _) Hlwn Hlw eq_refl), decode_respin_show, Has. reflexivity.
    + repeat apply not_in_app; try assumption. intros [H|H]; [discriminate|revert H].
      apply not_in_app; [exact (forallb_notin _ _ c_nl Hlw eq_refl)|exact Hr_nl].
    + rewrite tl_window, (peel_nondigits lw _ (lower_not_digit _ Hlw)), peel_nondigit by (assumption || reflexivity).
      apply find_last_short. lia.
Qed.

Lemma create_compose_id_ok a id :
  create_compose_id a = Ok id ->
  exists sfx, assoc (c_type a) COMPOSE_TYPE_SUFFIX_FN = Some (Some sfx) /\
              id = (cid_prefix a ++ [c_dash]) ++ c_date a ++ sfx ++ c_dot :: show_dec (c_respin a).
Proof.
  unfold create_compose_id, compose_type_suffix.
  destruct (assoc (c_type a) COMPOSE_TYPE_SUFFIX_FN) as [[sfx|]|]; cbn [bind]; try discriminate.
  intros H. injection H as <-. exists sfx. rewrite <- app_assoc. auto.
Qed.

Lemma prefix_dash_nonl p : ~ In c_nl p -> ~ In c_nl (p ++ [c_dash]).
Proof. intros H. apply not_in_app; [exact H|intros [E|[]]; discriminate]. Qed.

Theorem composeid_decode a id :
  create_compose_id a = Ok id ->
  ~ In c_nl (cid_prefix a) -> length (c_date a) = 8 -> forallb is_digit (c_date a) = true ->
  (c_respin a < 10 ^ 7)%N ->
  get_date_type_respin id = Ok (Some (c_date a, c_type a, c_respin a)).
Proof.
  intros Hc Hp Hl Hd Hr. apply create_compose_id_ok in Hc. destruct Hc as (sfx & E & ->).
  apply decode_tail; try assumption; [apply enc_dec_entry; exact E|apply prefix_dash_nonl; exact Hp].
Qed.

(* K1: an 8-digit respin is taken for the date *)
Lemma composeid_decode_refuted :
  exists a id, create_compose_id a = Ok id /\ (c_respin a < 10 ^ 8)%N /\ length (c_date a) = 8 /\
               get_date_type_respin id <> Ok (Some (c_date a, c_type a, c_respin a)).
Proof.
  exists {| r_short := lit "F"; r_version := lit "22"; r_type := Some (lit "ga"); r_layered := false;
            b_short := None; b_version := None; b_type := None; top_variants := [];
            c_date := lit "20150522"; c_type := production; c_respin := 10000000 |}.
  eexists. split; [vm_compute; reflexivity|]. split; [vm_compute; reflexivity|]. split; [reflexivity|].
  vm_compute. discriminate.
Qed.

Lemma cid_prefix_starts a :
  startswith (cid_prefix a) (r_short a ++ c_dash :: r_version a ++ rel_type_suffix (r_type a)) = true.
Proof.
  (* every branch of cid_prefix only appends to b0 *)
  unfold cid_prefix.
  set (b0 := r_short a ++ c_dash :: r_version a ++ rel_type_suffix (r_type a)).
  set (b1 := if r_layered a then _ else b0).
  assert (H1 : startswith b1 b0 = true).
  { unfold b1. destruct (r_layered a); [|rewrite <- (app_nil_r b0) at 1; apply startswith_app].
    apply startswith_app. }
  assert (H2 : forall v, startswith (b1 ++ c_dash :: v) b0 = true).
  { intros v. apply startswith_spec in H1. destruct H1 as [t ->]. rewrite <- app_assoc. apply startswith_app. }
  destruct (_ && _ && _); [|exact H1].
  destruct (sort_strs (top_variants a)) as [|v l]; [exact H1|].
  destruct (_ || _); [apply H2|exact H1].
Qed.

Theorem composeid_prefix a id :
  create_compose_id a = Ok id ->
  startswith id (r_short a ++ c_dash :: r_version a ++ rel_type_suffix (r_type a)) = true.
Proof.
  intros Hc. apply create_compose_id_ok in Hc. destruct Hc as (sfx & _ & ->).
  pose proof (cid_prefix_starts a) as Hs. apply startswith_spec in Hs. destruct Hs as [t ->].
  rewrite <- app_assoc, <- app_assoc. apply startswith_app.
Qed.

Fixpoint nullable (r : re) : bool :=
  match r with
  | Eps | Star _ => true
  | Cat a b => nullable a && nullable b
  | Alt a b => nullable a || nullable b
  | Grp _ a => nullable a
  | _ => false
  end.

Lemma mt_nullable r : nullable r = true -> forall pos rest, mt r pos [] rest.
Proof.
  induction r as [|cs|a IHa b IHb|a IHa b IHb|a IHa| | |n a IHa|]; cbn [nullable]; intros H pos rest; try discriminate.
  - constructor.
  - apply andb_true_iff in H. destruct H as [Ha Hb].
    change (@nil chr) with (@nil chr ++ []). constructor; [apply IHa; exact Ha|apply IHb; exact Hb].
  - apply orb_true_iff in H. destruct H as [H|H]; [apply mt_altl; apply IHa; exact H|apply mt_altr; apply IHb; exact H].
  - constructor.
  - constructor. apply IHa. exact H.
Qed.

Definition dg : re := Cls (CS false [(48, 57)%N]).

Lemma mt_cat_n_dg n : forall d pos rest, length d = S n -> forallb is_digit d = true -> mt (cat_n (S n) dg) pos d rest.
Proof.
  induction n as [|n IH]; intros [|x d] pos rest Hl Hd; try discriminate; cbn [forallb] in Hd; apply andb_true_iff in Hd.
  - destruct d; [|discriminate]. apply (den_cls _ _ digit_cs_spec). exists x. tauto.
  - apply (mt_cat dg _ pos [x] d); [apply (den_cls _ _ digit_cs_spec); exists x; tauto|apply IH; [cbn in Hl; lia|tauto]].
Qed.

Lemma compose_id_re_shape :
  exists tl, re_compose_id = Cat (Star (Cls any_but_nl)) (Cat (cat_n 8 dg) tl) /\ nullable tl = true.
Proof. eexists. split; [reflexivity|vm_compute; reflexivity]. Qed.

Theorem composeid_self_valid a id :
  create_compose_id a = Ok id ->
  ~ In c_nl (cid_prefix a) -> length (c_date a) = 8 -> forallb is_digit (c_date a) = true ->
  compose_id_valid id = true.
Proof.
  intros Hc Hp Hl Hd. apply create_compose_id_ok in Hc. destruct Hc as (sfx & _ & ->).
  unfold compose_id_valid. apply re_matches_iff.
  destruct compose_id_re_shape as (tlr & -> & Hn).
  exists ((cid_prefix a ++ [c_dash]) ++ c_date a ++ []), (sfx ++ c_dot :: show_dec (c_respin a)).
  split; [rewrite app_nil_r, <- !app_assoc; reflexivity|].
  apply mt_cat.
  - apply (den_star_cls _ _ any_but_nl_spec), forallb_neq, prefix_dash_nonl, Hp.
  - apply mt_cat; [apply mt_cat_n_dg; assumption|apply mt_nullable; exact Hn].
Qed.

Definition doc_suffixes : list (str * str) :=
  [ (lit "n", lit "nightly"); (lit "nightly", lit "nightly"); (lit "t", lit "test"); (lit "test", lit "test");
    (lit "ci", lit "ci"); (lit "d", lit "development") ].

Lemma decode_unknown_suffix pre date lw rest :
  ~ In c_nl pre -> length date = 8 -> forallb is_digit date = true ->
  lw <> [] -> forallb is_lower lw = true ->
  (match rest with [] => True | y :: _ => is_lower y = false end) -> ~ In c_nl rest ->
  find_last (tl (date ++ c_dot :: lw ++ rest)) = None ->
  assoc lw COMPOSE_TYPE_SUFFIXES = None ->
  get_date_type_respin (pre ++ date ++ c_dot :: lw ++ rest) = Err ValueError.
Proof.
  intros Hpre Hlen Hdig Hlwn Hlw Hrest Hrnl Hnone Has.
  unfold get_date_type_respin. rewrite gdtr_window; try assumption.
  - rewrite (decode_type_lower lw rest Hlwn Hlw Hrest), Has. reflexivity.
  - repeat apply not_in_app; try assumption; [exact (forallb_notin _ _ c_nl Hdig eq_refl)|].
    intros [H|H]; [discriminate|revert H]. apply not_in_app; [exact (forallb_notin _ _ c_nl Hlw eq_refl)|exact Hrnl].
Qed.
