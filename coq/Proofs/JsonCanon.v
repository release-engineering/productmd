(* C08: the printed JSON depends on the content of every mapping, not on its iteration order *)
From PM Require Import Base.PyVal Base.Obj Base.Json Proofs.ListLemmas Proofs.StrOrder.
From Coq Require Import Permutation.

(* recursively key-sorted form: two values with the same canon have the same content *)
Fixpoint canon (v : pyval) : pyval :=
  match v with
  | PList l => PList ((fix go (l : list pyval) : list pyval := match l with [] => [] | x :: l' => canon x :: go l' end) l)
  | PDict kv => PDict ((fix go (kv : list (str * pyval)) : list (str * pyval) :=
                          match kv with [] => [] | (k, x) :: kv' => insert_kv k (canon x) (go kv') end) kv)
  | _ => v
  end.

Fixpoint nodup_keys (v : pyval) : Prop :=
  match v with
  | PList l => (fix go (l : list pyval) : Prop := match l with [] => True | x :: l' => nodup_keys x /\ go l' end) l
  | PDict kv => NoDup (map fst kv) /\
                (fix go (kv : list (str * pyval)) : Prop := match kv with [] => True | (_, x) :: kv' => nodup_keys x /\ go kv' end) kv
  | _ => True
  end.

Definition entry (lvl : nat) (p : str * pyval) : str * pyval :=
  (fst p, PStr (json_string (fst p) ++ lit ": " ++ print_json_at (S lvl) (snd p))).

Definition render (lvl : nat) (entries : list (str * pyval)) : str :=
  match entries with
  | [] => lit "{}"
  | (_, e) :: es =>
      let txt v := match v with PStr s => s | _ => [] end in
      lit "{" ++ [c_nl] ++ indent (S lvl) ++ txt e ++
      flat_map (fun ke => lit "," ++ [c_nl] ++ indent (S lvl) ++ txt (snd ke)) es ++
      [c_nl] ++ indent lvl ++ lit "}"
  end.

Definition render_list (lvl : nat) (items : list str) : str :=
  match items with
  | [] => lit "[]"
  | x :: l => lit "[" ++ [c_nl] ++ indent (S lvl) ++ x ++ flat_map (fun y => lit "," ++ [c_nl] ++ indent (S lvl) ++ y) l ++
              [c_nl] ++ indent lvl ++ lit "]"
  end.

Lemma print_list lvl l : print_json_at lvl (PList l) = render_list lvl (map (print_json_at (S lvl)) l).
Proof.
  destruct l as [|x l]; [reflexivity|]. cbn [print_json_at map render_list]. do 4 f_equal. f_equal.
  induction l as [|y l IH]; [reflexivity|]. cbn [map flat_map]. rewrite IH, <- !app_assoc. reflexivity.
Qed.

Lemma print_dict lvl kv : print_json_at lvl (PDict kv) = render lvl (sort_kv (map (entry lvl) kv)).
Proof.
  cbn [print_json_at]. unfold render.
  match goal with |- match ?a with _ => _ end = match ?b with _ => _ end => assert (a = b) as -> end; [|reflexivity].
  induction kv as [|[k x] kv IH]; [reflexivity|]. cbn [map sort_kv entry fst snd]. rewrite IH. reflexivity.
Qed.

Lemma canon_list l : canon (PList l) = PList (map canon l).
Proof. reflexivity. Qed.

Lemma canon_dict kv : canon (PDict kv) = PDict (sort_kv (map (fun p => (fst p, canon (snd p))) kv)).
Proof.
  cbn [canon]. f_equal. induction kv as [|[k x] kv IH]; [reflexivity|]. cbn [map sort_kv fst snd]. rewrite IH. reflexivity.
Qed.

Lemma nodup_keys_list l x : nodup_keys (PList l) -> In x l -> nodup_keys x.
Proof. cbn [nodup_keys]. induction l as [|y l IH]; [intros _ []|]. intros [Hy Hl] [<-|Hx]; auto. Qed.

Lemma keys_insert_kv k v l : Permutation (map fst (insert_kv k v l)) (k :: map fst l).
Proof. apply (Permutation_map fst (insert_kv_perm k v l)). Qed.

Theorem print_json_canon v : nodup_keys v -> forall lvl, print_json_at lvl v = print_json_at lvl (canon v).
Proof.
  induction v as [| | | | |l IH|kv IH] using pyval_ind'; intros Hnd lvl; try reflexivity; rewrite Forall_forall in IH.
  - rewrite canon_list, !print_list, map_map. f_equal. apply map_ext_in. intros x Hx.
    exact (IH x Hx (nodup_keys_list l x Hnd Hx) (S lvl)).
  - (* the entries of the canonical form are, up to order, the entries of kv: printing sorts both *)
    rewrite canon_dict, !print_dict. f_equal. destruct Hnd as [Hk Hv]. rewrite fix_all_iff in Hv.
    set (g := fun p : str * pyval => (fst p, canon (snd p))).
    assert (Hmap : map (entry lvl) (map g kv) = map (entry lvl) kv).
    { rewrite map_map. apply map_ext_in. intros [k x] Hp. unfold entry, g. cbn [fst snd].
      rewrite <- (IH (k, x) Hp (Hv k x Hp) (S lvl) : _ = print_json_at (S lvl) (canon x)). reflexivity. }
    rewrite <- Hmap. apply sort_kv_perm; [apply Permutation_map, Permutation_sym, sort_kv_is_perm|].
    rewrite !map_map. exact Hk.
Qed.

Example print_json_example :
  print_json (PDict [(lit "b", PInt 1); (lit "a", PList [PNone; PBool true])]) =
  lit "{" ++ [c_nl] ++ lit "    ""a"": [" ++ [c_nl] ++ lit "        null," ++ [c_nl] ++ lit "        true" ++ [c_nl] ++
  lit "    ]," ++ [c_nl] ++ lit "    ""b"": 1" ++ [c_nl] ++ lit "}".
Proof. vm_compute. reflexivity. Qed.
