(* facts about the string functions of Base/Str.v *)
From PM Require Import Base.Str.

Lemma str_ltb_irrefl a : str_ltb a a = false.
Proof. induction a as [|x a IH]; cbn; [reflexivity|]. rewrite N.ltb_irrefl, N.eqb_refl. exact IH. Qed.

Lemma str_ltb_cons x a y b : str_ltb (x :: a) (y :: b) = true <-> x < y \/ (x = y /\ str_ltb a b = true).
Proof.
  cbn [str_ltb]. destruct (N.ltb_spec x y) as [H|H]; [split; auto|]. destruct (N.eqb_spec x y) as [->|Hn].
  - split; [auto|]. intros [H'|[_ H']]; [lia|exact H'].
  - split; [discriminate|]. intros [H'|[H' _]]; [lia|contradiction].
Qed.

Lemma str_ltb_trans a : forall b c, str_ltb a b = true -> str_ltb b c = true -> str_ltb a c = true.
Proof.
  induction a as [|x a IH]; intros [|y b] [|z c] H1 H2; try discriminate H1; try discriminate H2; try reflexivity.
  apply str_ltb_cons in H1, H2. apply str_ltb_cons.
  destruct H1 as [H1|[-> H1]], H2 as [H2|[-> H2]]; [left; lia|auto|auto|right; eauto].
Qed.

Lemma str_ltb_trichotomy a : forall b, str_ltb a b = true \/ a = b \/ str_ltb b a = true.
Proof.
  induction a as [|x a IH]; intros [|y b]; auto.
  rewrite !str_ltb_cons. destruct (N.lt_trichotomy x y) as [H|[->|H]]; auto.
  destruct (IH b) as [H1|[->|H1]]; auto.
Qed.

Lemma str_ltb_asym a b : str_ltb a b = true -> str_ltb b a = false.
Proof.
  intros H. destruct (str_ltb b a) eqn:E; [|reflexivity].
  pose proof (str_ltb_trans _ _ _ H E) as H1. rewrite str_ltb_irrefl in H1. discriminate.
Qed.

Lemma str_leb_antisym a b : str_leb a b = true -> str_leb b a = true -> a = b.
Proof.
  unfold str_leb. intros H1 H2. apply negb_true_iff in H1, H2.
  destruct (str_ltb_trichotomy a b) as [H|[->|H]]; congruence.
Qed.

Lemma str_leb_trans a b c : str_leb a b = true -> str_leb b c = true -> str_leb a c = true.
Proof.
  unfold str_leb. intros H1 H2. apply negb_true_iff in H1, H2. apply negb_true_iff.
  destruct (str_ltb c a) eqn:E; [|reflexivity].
  destruct (str_ltb_trichotomy b c) as [H|[->|H]]; [|congruence|congruence].
  pose proof (str_ltb_trans _ _ _ H E). congruence.
Qed.

(* the same order written with str_ltb alone *)
Lemma str_nlt_trans a b c : str_ltb b a = false -> str_ltb c b = false -> str_ltb c a = false.
Proof. rewrite <- !negb_true_iff. apply str_leb_trans. Qed.

Lemma str_nlt_antisym a b : str_ltb b a = false -> str_ltb a b = false -> a = b.
Proof. rewrite <- !negb_true_iff. apply str_leb_antisym. Qed.

Lemma forallb_neq c s : forallb (fun x => negb (N.eqb x c)) s = true <-> ~ In c s.
Proof.
  induction s as [|x s IH]; cbn [forallb In]; [tauto|].
  rewrite andb_true_iff, IH, negb_true_iff, N.eqb_neq. tauto.
Qed.

Lemma split_last_inj (c : chr) a b a' b' : a ++ c :: b = a' ++ c :: b' -> ~ In c b -> ~ In c b' -> a = a' /\ b = b'.
Proof.
  intros H Hb Hb'. pose proof (split_last_app c a b Hb) as E.
  rewrite H, (split_last_app c a' b' Hb') in E. injection E; auto.
Qed.

Lemma split_acc_notin c (x : str) : forall acc, ~ In c x -> split_acc c acc x = [rev acc ++ x].
Proof.
  induction x as [|h x IH]; intros acc Hx; cbn [split_acc]; [rewrite app_nil_r; reflexivity|].
  destruct (N.eqb_spec h c) as [->|_]; [destruct Hx; left; reflexivity|].
  rewrite IH by (intros H; apply Hx; right; exact H). cbn [rev]. rewrite <- app_assoc. reflexivity.
Qed.

Lemma split_acc_app c (x : str) b : forall acc, ~ In c x -> split_acc c acc (x ++ c :: b) = (rev acc ++ x) :: split c b.
Proof.
  induction x as [|h x IH]; intros acc Hx; cbn [split_acc app]; [rewrite N.eqb_refl, app_nil_r; reflexivity|].
  destruct (N.eqb_spec h c) as [->|_]; [destruct Hx; left; reflexivity|].
  rewrite IH by (intros H; apply Hx; right; exact H). cbn [rev]. rewrite <- app_assoc. reflexivity.
Qed.

Lemma split_two c (a b : str) : ~ In c a -> ~ In c b -> split c (a ++ c :: b) = [a; b].
Proof. intros Ha Hb. unfold split. rewrite (split_acc_app c a b [] Ha). unfold split. rewrite (split_acc_notin c b [] Hb). reflexivity. Qed.
