(* decimal printing / parsing round trip *)
From PM Require Import Base.Str Proofs.ListLemmas.

Lemma parse_dec_acc_spec s k : parse_dec_acc k s = k * 10 ^ N.of_nat (length s) + parse_dec s.
Proof.
  unfold parse_dec. revert k; induction s as [|x s IH]; intros k.
  - cbn. lia.
  - cbn [parse_dec_acc length]. rewrite IH. rewrite (IH (0 * 10 + digit_val x)).
    rewrite Nat2N.inj_succ, N.pow_succ_r'. lia.
Qed.

Lemma parse_dec_cons d s : parse_dec (d :: s) = digit_val d * 10 ^ N.of_nat (length s) + parse_dec s.
Proof. unfold parse_dec at 1. cbn [parse_dec_acc]. apply parse_dec_acc_spec. Qed.

Lemma pos_bits_bound p : Npos p < 2 ^ N.of_nat (pos_bits p).
Proof. induction p as [p IH|p IH|]; cbn [pos_bits]; rewrite ?Nat2N.inj_succ, ?N.pow_succ_r'; [lia|lia|reflexivity]. Qed.

Lemma n_bits_bound n : n < 2 ^ N.of_nat (n_bits n).
Proof. destruct n as [|p]; [reflexivity|apply pos_bits_bound]. Qed.

Lemma n_bits_pos n : exists f, n_bits n = S f.
Proof. destruct n as [|[p|p|]]; cbn; eauto. Qed.

(* a step of show_dec_fuel splits n into its last digit and the rest; the lemmas below are about
   that digit r and that rest q, so that lia does not meet the division again *)
Lemma divmod10 (P : N -> N -> Prop) n : (forall q r, n = 10 * q + r -> r < 10 -> P q r) -> P (n / 10) (n mod 10).
Proof. intros H. apply H; [apply N.div_mod|apply N.mod_upper_bound]; discriminate. Qed.

Lemma show_dec_fuel_digits f n acc :
  forallb is_digit acc = true -> forallb is_digit (show_dec_fuel f n acc) = true.
Proof.
  revert n acc; induction f as [|f IH]; intros n acc Hacc; cbn [show_dec_fuel]; [exact Hacc|].
  pattern (n / 10), (n mod 10). apply divmod10. intros q r _ Hr.
  assert (Hd : forallb is_digit (48 + r :: acc) = true) by (cbn [forallb]; rewrite Hacc; unfold is_digit; lia).
  destruct (N.eqb q 0); [exact Hd|apply IH; exact Hd].
Qed.

Lemma show_dec_fuel_parse f : forall n acc,
  n < 2 ^ N.of_nat f -> (f <> O) ->
  parse_dec (show_dec_fuel f n acc) = n * 10 ^ N.of_nat (length acc) + parse_dec acc.
Proof.
  induction f as [|f IH]; intros n acc Hn Hf; [congruence|]. cbn [show_dec_fuel].
  rewrite Nat2N.inj_succ, N.pow_succ_r' in Hn. pattern (n / 10), (n mod 10). apply divmod10. intros q r -> Hr.
  assert (Hd : digit_val (48 + r) = r) by (unfold digit_val; lia).
  destruct (N.eqb_spec q 0) as [Hq|Hq].
  - rewrite parse_dec_cons, Hd. f_equal. f_equal. lia.
  - destruct f as [|f']; [change (2 ^ N.of_nat 0) with 1 in Hn; lia|].
    rewrite IH by (lia || discriminate). cbn [length]. rewrite parse_dec_cons, Hd, Nat2N.inj_succ, N.pow_succ_r'. lia.
Qed.

Lemma show_dec_fuel_len f : forall n acc (k : nat), (k >= 1)%nat -> n < 10 ^ N.of_nat k ->
  (length (show_dec_fuel f n acc) <= length acc + k)%nat.
Proof.
  induction f as [|f IH]; intros n acc k Hk Hn; cbn [show_dec_fuel]; [lia|].
  pattern (n / 10), (n mod 10). apply divmod10. intros q r -> Hr.
  destruct (N.eqb_spec q 0) as [Hq|Hq]; [cbn [length]; lia|].
  destruct k as [|[|k]]; [lia|change (10 ^ N.of_nat 1) with 10 in Hn; lia|].
  rewrite Nat2N.inj_succ, N.pow_succ_r' in Hn. specialize (IH q (48 + r :: acc) (S k)). cbn [length] in IH. lia.
Qed.

Lemma show_dec_fuel_nonempty f n acc : acc <> [] -> show_dec_fuel f n acc <> [].
Proof.
  revert n acc. induction f as [|f IH]; intros n acc Ha; cbn [show_dec_fuel]; [exact Ha|].
  destruct (N.eqb (n / 10) 0); [discriminate|]. apply IH. discriminate.
Qed.

Lemma show_dec_digits n : forallb is_digit (show_dec n) = true.
Proof. apply show_dec_fuel_digits. reflexivity. Qed.

Lemma parse_show_dec n : parse_dec (show_dec n) = n.
Proof.
  unfold show_dec. destruct (n_bits_pos n) as [f Hf].
  rewrite show_dec_fuel_parse; [cbn; unfold parse_dec; cbn; lia|apply n_bits_bound|rewrite Hf; discriminate].
Qed.

Lemma show_dec_nonempty n : show_dec n <> [].
Proof.
  unfold show_dec. destruct (n_bits_pos n) as [f ->]. cbn [show_dec_fuel].
  destruct (N.eqb (n / 10) 0); [discriminate|]. apply show_dec_fuel_nonempty. discriminate.
Qed.

Lemma show_dec_notin c n : is_digit c = false -> ~ In c (show_dec n).
Proof. apply forallb_notin, show_dec_digits. Qed.

Lemma show_dec_len n (k : nat) : (k >= 1)%nat -> n < 10 ^ N.of_nat k -> (length (show_dec n) <= k)%nat.
Proof. intros Hk Hn. exact (show_dec_fuel_len (n_bits n) n [] k Hk Hn). Qed.
