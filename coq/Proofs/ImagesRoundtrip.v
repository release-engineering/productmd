(* C02: an image survives serialize / deserialize with all fifteen attributes *)
From PM Require Import Base.PyVal Base.Obj Model.Common Model.Images Proofs.ImagesProofs Gen.Tables Gen.Validators.

Definition mk_image (path mtime size volume_id ty format arch disc_number disc_count checksums implant_md5
                     bootable subvariant unified additional_variants : pyval) : obj :=
  [(F"path", path); (F"mtime", mtime); (F"size", size); (F"volume_id", volume_id); (F"type", ty);
   (F"format", format); (F"arch", arch); (F"disc_number", disc_number); (F"disc_count", disc_count); (F"checksums", checksums);
   (F"implant_md5", implant_md5); (F"bootable", bootable); (F"subvariant", subvariant);
   (F"unified", unified); (F"additional_variants", additional_variants)].

(* the shape every loaded image has *)
Definition image_normal (o : obj) : Prop :=
  exists path mtime size volume_id ty format arch dn dc checksums implant bootable subvariant unified addl,
    o = mk_image path (PInt mtime) (PInt size) volume_id ty format arch (PInt dn) (PInt dc) checksums implant
                 (PBool bootable) subvariant (PBool unified) addl /\
    (unified = false -> addl = PList []).

Theorem image_roundtrip o j :
  image_normal o -> ser_image o = Ok j -> deser_image VERSION j = Ok o.
Proof.
  intros (path & mtime & size & volume_id & ty & format & arch & dn & dc & checksums & implant & bootable & subvariant &
          unified & addl & -> & Hu) H.
  apply ser_image_spec in H. destruct H as [Hv ->]. revert Hv.
  (* the validators play no part in the reading: with them abstracted, reading the fifteen fields of the written dictionary
     back is a computation (left in the term, the validator table makes the same evaluation slow to check) *)
  unfold deser_image. generalize (validate image_cls). intros val Hv.
  destruct unified; [|rewrite (Hu eq_refl) in *]; vm_compute in Hv |- *; rewrite Hv; reflexivity.
Qed.

Example image_roundtrip_example :
  let o := mk_image (PStr (lit "Server/x86_64/iso/dvd.iso")) (PInt 1440000000) (PInt 8589934597) (PStr (lit "Fedora-S-22"))
                    (PStr (lit "dvd")) (PStr (lit "iso")) (PStr (lit "x86_64")) (PInt 1) (PInt 1)
                    (PDict [(lit "md5", PStr (lit "cc")); (lit "sha256", PStr (lit "aa"))]) PNone (PBool true)
                    (PStr (lit "Server")) (PBool true) (PList [PStr (lit "Client")]) in
  exists j, ser_image o = Ok j /\ deser_image VERSION j = Ok o.
Proof.
  intros o. assert (E : ser_image o = Ok (ser_total o)) by (apply ser_image_spec; split; [vm_compute|]; reflexivity).
  exists (ser_total o). split; [exact E|]. apply image_roundtrip; [|exact E]. do 15 eexists. split; [reflexivity|discriminate].
Qed.
