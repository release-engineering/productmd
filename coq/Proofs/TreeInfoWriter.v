(* C04 (writer side): ser_ti is ten stages, each writing sections of its own kind only, and the kinds are disjoint; so the
   sections of a stage are absent before it runs, and what it leaves in them is what the final table holds *)
From PM Require Import Base.PyVal Base.Obj Base.Ini Model.Common Model.TreeInfo Proofs.Monad Proofs.AssocLemmas
  Proofs.IniLemmas.
From Coq Require Import Permutation.

Definition only_in (P : str -> Prop) (t t' : ini) : Prop := forall s, ~ P s -> assoc s t' = assoc s t.

Lemma only_in_refl (P : str -> Prop) t : only_in P t t.
Proof. intros s _. reflexivity. Qed.

Lemma only_in_trans (P : str -> Prop) t1 t2 t3 : only_in P t1 t2 -> only_in P t2 t3 -> only_in P t1 t3.
Proof. intros H1 H2 s Hs. rewrite (H2 s Hs). exact (H1 s Hs). Qed.

Lemma only_in_weaken (P Q : str -> Prop) t t' : (forall s, P s -> Q s) -> only_in P t t' -> only_in Q t t'.
Proof. intros HPQ H s Hs. apply H. intros HP. exact (Hs (HPQ s HP)). Qed.

Definition writes (P : str -> Prop) (t t' : ini) : Prop := only_in P t t' /\ (NoDup (map fst t) -> NoDup (map fst t')).

Lemma writes_refl P t : writes P t t.
Proof. split; [apply only_in_refl|auto]. Qed.

Lemma ok_writes P t t' : Ok t = Ok t' -> writes P t t'.
Proof. intros H; injection H as <-. apply writes_refl. Qed.

Lemma writes_trans P t1 t2 t3 : writes P t1 t2 -> writes P t2 t3 -> writes P t1 t3.
Proof. intros [O1 N1] [O2 N2]. split; [exact (only_in_trans P _ _ _ O1 O2)|auto]. Qed.

Lemma writes_weaken (P Q : str -> Prop) t t' : (forall s, P s -> Q s) -> writes P t t' -> writes Q t t'.
Proof. intros HPQ [O N]. split; [exact (only_in_weaken P Q _ _ HPQ O)|exact N]. Qed.

Lemma add_section_writes (P : str -> Prop) t s t' : add_section t s = Ok t' -> P s -> writes P t t'.
Proof.
  intros H HP. apply add_section_spec in H. destruct H as [E ->]. split.
  - intros s0 Hs. rewrite assoc_app. destruct (assoc s0 t); [reflexivity|]. cbn [assoc].
    destruct (str_eqb_spec s0 s) as [->|_]; [contradiction|reflexivity].
  - intros Hn. rewrite map_app. exact (NoDup_keys_fresh s t E Hn).
Qed.

Lemma ini_set_writes (P : str -> Prop) t s o v t' : ini_set t s o v = Ok t' -> P s -> writes P t t'.
Proof.
  intros H HP. apply ini_set_spec in H. destruct H as (x & opts & _ & E & ->). split.
  - intros s0 Hs. apply assoc_set_other. intros ->. contradiction.
  - rewrite (assoc_set_keys _ _ _ _ E). auto.
Qed.

Lemma fold_writes {A} P (f : ini -> A -> result ini) (l : list A) :
  (forall q x q', f q x = Ok q' -> writes P q q') ->
  forall t t', fold_left (fun acc x => do q <- acc; f q x) l (Ok t) = Ok t' -> writes P t t'.
Proof.
  intros Hf t t'. apply (fold_bind_inv (writes P t)); [|apply writes_refl].
  intros q x q' Hq E. exact (writes_trans _ _ _ _ Hq (Hf _ _ _ E)).
Qed.

Lemma sets_writes (P : str -> Prop) t s kvs t' : sets t s kvs = Ok t' -> P s -> writes P t t'.
Proof. intros H HP. revert H. apply fold_writes. intros q kv q' E. exact (ini_set_writes _ _ _ _ _ _ E HP). Qed.

Lemma section_writes (P : str -> Prop) p s kvs q p' : add_section p s = Ok q -> sets q s kvs = Ok p' -> P s -> writes P p p'.
Proof. intros Ga Gs HP. exact (writes_trans P p q p' (add_section_writes P _ _ _ Ga HP) (sets_writes P _ _ _ _ Gs HP)). Qed.

Lemma set_or_fallback_writes (P : str -> Prop) p sec opt paths k ksrc src q :
  set_or_fallback p sec opt paths k ksrc src = Ok q -> P sec -> writes P p q.
Proof.
  intros H HP. destruct (set_or_fallback_spec _ _ _ _ _ _ _ _ H) as [[-> _]|(s & E & _)]; [apply writes_refl|exact (ini_set_writes _ _ _ _ _ _ E HP)].
Qed.

Section Stages.
  Variables (K : Type) (owns : K -> str -> Prop) (step : K -> ini -> result ini).
  Hypothesis owns_disjoint : forall k k' s, owns k s -> owns k' s -> k = k'.
  Hypothesis step_writes : forall k p p', step k p = Ok p' -> writes (owns k) p p'.

  Fixpoint run (ks : list K) (p : ini) : result ini :=
    match ks with [] => Ok p | k :: ks' => do q <- step k p; run ks' q end.

  Theorem run_frame ks : NoDup ks -> forall p0 t, run ks p0 = Ok t ->
    writes (fun s => exists k, In k ks /\ owns k s) p0 t /\
    forall k, In k ks -> exists p p', step k p = Ok p' /\ forall s, owns k s -> assoc s p = assoc s p0 /\ assoc s t = assoc s p'.
  Proof.
    induction 1 as [|k0 ks Hnin Hnd IH]; intros p0 t H.
    - injection H as <-. split; [apply writes_refl|intros k []].
    - cbn [run] in H. inv_bind H as p1 E.
      destruct (IH p1 t H) as [W Fr]. pose proof (step_writes _ _ _ E) as W0. split.
      + apply (writes_trans _ p0 p1 t).
        * revert W0. apply writes_weaken. intros s Hs. exists k0. split; [left; reflexivity|exact Hs].
        * revert W. apply writes_weaken. intros s (k & Hk & Hs). exists k. split; [right; exact Hk|exact Hs].
      + intros k [<-|Hk].
        * exists p0, p1. split; [exact E|]. intros s Hs. split; [reflexivity|]. apply (proj1 W).
          intros (k & Hk & Hs'). rewrite (owns_disjoint _ _ _ Hs' Hs) in Hk. contradiction.
        * destruct (Fr k Hk) as (p & p' & Ep & Hp). exists p, p'. split; [exact Ep|]. intros s Hs. destruct (Hp s Hs) as [A B].
          split; [|exact B]. rewrite A. apply (proj1 W0). intros Hs0. apply Hnin. rewrite (owns_disjoint _ _ _ Hs0 Hs). exact Hk.
  Qed.
End Stages.
Arguments run {K}.

Definition is_variant_section (s : str) : Prop := startswith s (lit "variant-") = true \/ startswith s (lit "addon-") = true.

Lemma tv_section_is f : is_variant_section (tv_section f).
Proof. unfold tv_section, is_variant_section. destruct (py_eq _ _); [right|left]; apply startswith_app. Qed.

Lemma ser_tvar_writes : forall tv parent p p', ser_tvar parent tv p = Ok p' -> writes is_variant_section p p'.
Proof.
  fix IH 1. intros tv parent p p' H. destruct tv as [f paths children]. cbn [ser_tvar] in H.
  pose proof (tv_section_is f) as Hsec. set (sec := tv_section f) in *.
  inv_bind H as u0 G0. inv_bind H as p1 G1. inv_bind H as p2 G2. inv_bind H as u1 G3. inv_bind H as p3 G4.
  inv_bind H as p4 G5. inv_bind H as p5 G6.
  apply (writes_trans _ p p2); [exact (section_writes _ _ _ _ _ _ G1 G2 Hsec)|].
  apply (writes_trans _ p2 p3).
  { revert G4. apply fold_writes. intros q field q' Hq. destruct (getf paths field); try exact (ok_writes _ _ _ Hq);
      exact (ini_set_writes _ _ _ _ _ _ Hq Hsec). }
  apply (writes_trans _ p3 p4).
  { destruct parent; [exact (ini_set_writes _ _ _ _ _ _ G5 Hsec)|exact (ok_writes _ _ _ G5)]. }
  apply (writes_trans _ p4 p5).
  { clear -G6 IH. revert p4 G6. induction children as [|[k c] cs IHc]; intros q G; [exact (ok_writes _ _ _ G)|].
    inv_bind G as q' Gc. exact (writes_trans _ q q' _ (IH _ _ _ _ Gc) (IHc q' G)). }
  destruct children; [exact (ok_writes _ _ _ H)|exact (ini_set_writes _ _ _ _ _ _ H Hsec)].
Qed.

Lemma ser_general_writes (P : str -> Prop) x mv p t : ser_general x mv p = Ok t -> P (F"general") -> writes P p t.
Proof.
  unfold ser_general. intros H HP.
  inv_bind H as p0 G0. inv_bind H as ts Gts. inv_bind H as ts_s Gtss. inv_bind H as p1 G1.
  inv_bind H as p2 G2. inv_bind H as variant Gv. inv_bind H as p3 G3. inv_bind H as v Gl. inv_bind H as p4 G4.
  apply (writes_trans P p p1); [exact (section_writes P _ _ _ _ _ G0 G1 HP)|].
  apply (writes_trans P p1 p2); [exact (ini_set_writes P _ _ _ _ _ G2 HP)|].
  apply (writes_trans P p2 p3); [exact (ini_set_writes P _ _ _ _ _ G3 HP)|].
  (* the last two steps are set_or_fallback (IniLemmas), by conversion *)
  exact (writes_trans P p3 p4 t (set_or_fallback_writes P _ _ _ _ _ _ _ _ G4 HP) (set_or_fallback_writes P _ _ _ _ _ _ _ _ H HP)).
Qed.

(* The model's ser_ti is one chain of binds; the w_* below repeat its text slice by slice, cut where one group of sections ends
   and the next begins, and ser_ti_stages is the only tie between the two *)
Inductive kind := KHeader | KRelease | KBase | KTree | KVariants | KChecksums | KImages | KStage2 | KMedia | KGeneral.

Definition kinds : list kind := [KHeader; KRelease; KBase; KTree; KVariants; KChecksums; KImages; KStage2; KMedia; KGeneral].

Lemma kinds_all : NoDup kinds /\ forall k, In k kinds.
Proof. split; [repeat constructor; cbn [In]; intuition discriminate|intros []; cbn [kinds In]; tauto]. Qed.

(* the kind of a section is computed from its name, so that no section has two *)
Definition kind_of (s : str) : option kind :=
  if startswith s (lit "variant-") || startswith s (lit "addon-") then Some KVariants
  else if startswith s (lit "images-") then Some KImages
  else if str_eqb s (F"header") then Some KHeader
  else if str_eqb s (F"release") then Some KRelease
  else if str_eqb s (F"base_product") then Some KBase
  else if str_eqb s (F"tree") then Some KTree
  else if str_eqb s (F"checksums") then Some KChecksums
  else if str_eqb s (F"stage2") then Some KStage2
  else if str_eqb s (F"media") then Some KMedia
  else if str_eqb s (F"general") then Some KGeneral
  else None.

Definition kind_has (k : kind) (s : str) : Prop := kind_of s = Some k.

Lemma kind_has_disjoint k k' s : kind_has k s -> kind_has k' s -> k = k'.
Proof. unfold kind_has. congruence. Qed.

Lemma variant_kind s : is_variant_section s -> kind_has KVariants s.
Proof. unfold kind_has, kind_of. intros [-> | ->]; [reflexivity|rewrite orb_true_r; reflexivity]. Qed.

Lemma images_kind s : startswith s (lit "images-") = true -> kind_has KImages s.
Proof. intros H. apply startswith_spec in H. destruct H as (r & ->). reflexivity. Qed.

Definition w_header (p : ini) : result ini :=
  check tvalidate (F"treeinfo.Header") (header_obj (PStr (F"0.0")));
  do p0 <- add_section p (F"header");
  sets p0 (F"header") [(F"version", current_version); (F"type", PStr ti_mtype)].

Definition w_release (x : ti) (p : ini) : result ini :=
  let rel := ti_release x in
  check tvalidate (F"treeinfo.Release") rel;
  do p2 <- add_section p (F"release");
  do p3 <- sets p2 (F"release") [(F"name", getf rel (F"name")); (F"version", getf rel (F"version")); (F"short", getf rel (F"short"))];
  if truthy (getf rel (F"is_layered")) then ini_set p3 (F"release") (F"is_layered") (PStr (F"true")) else Ok p3.

Definition w_base (x : ti) (p : ini) : result ini :=
  if truthy (getf (ti_release x) (F"is_layered")) then
    let bp := ti_base_product x in
    check tvalidate (F"treeinfo.BaseProduct") bp;
    do q <- add_section p (F"base_product");
    sets q (F"base_product") [(F"name", getf bp (F"name")); (F"version", getf bp (F"version")); (F"short", getf bp (F"short"))]
  else Ok p.

Definition w_tree (x : ti) (p : ini) : result ini :=
  let tree := ti_tree x in
  check tvalidate (F"treeinfo.Tree") tree;
  do p6 <- add_section p (F"tree");
  do ts_s <- py_str_num (getf tree (F"build_timestamp"));
  do p7 <- sets p6 (F"tree") [(F"arch", getf tree (F"arch")); (F"platforms", PStr (platforms_str tree)); (F"build_timestamp", PStr ts_s)];
  check tvalidate (F"treeinfo.Variants") [(F"_children", PList (map (tv_child_entry true) (sort_keys (ti_variants x))))];
  ini_set p7 (F"tree") (F"variants")
          (PStr (join_strs [c_comma] (sort_list (map (fun kv => getf (tv_fields (snd kv)) (F"uid")) (ti_variants x))))).

Definition w_variants (x : ti) (p : ini) : result ini :=
  fold_left (fun acc kv => do q <- acc; ser_tvar None (snd kv) q) (ti_variants x) (Ok p).

Definition w_checksums (x : ti) (p : ini) : result ini :=
  check tvalidate (F"treeinfo.Checksums") [(F"_checksum_paths", PList (map (fun c => PStr (fst c)) (ti_checksums x)))];
  match ti_checksums x with
  | [] => Ok p
  | cs => do q <- add_section p (F"checksums");
          fold_left (fun acc c => do q' <- acc;
                       ini_set q' (F"checksums") (fst c) (PStr (fmt_s (fst (snd c)) ++ c_colon :: fmt_s (snd (snd c))))) cs (Ok q)
  end.

Definition w_images (x : ti) (p : ini) : result ini :=
  match ti_images x with
  | [] => Ok p
  | ims =>
      check tvalidate (F"treeinfo.Images") (images_ctx x);
      fold_left (fun acc pi => do q <- acc;
                   let sec := lit "images-" ++ fst pi in
                   do q1 <- add_section q sec;
                   sets q1 sec (snd pi)) ims (Ok p)
  end.

Definition w_stage2 (x : ti) (p : ini) : result ini :=
  let s2 := ti_stage2 x in
  if negb (truthy (getf s2 (F"mainimage"))) && negb (truthy (getf s2 (F"instimage"))) then Ok p else
    check tvalidate (F"treeinfo.Stage2") s2;
    do q <- add_section p (F"stage2");
    do q1 <- (if truthy (getf s2 (F"mainimage")) then ini_set q (F"stage2") (F"mainimage") (getf s2 (F"mainimage")) else Ok q);
    (if truthy (getf s2 (F"instimage")) then ini_set q1 (F"stage2") (F"instimage") (getf s2 (F"instimage")) else Ok q1).

Definition w_media (x : ti) (p : ini) : result ini :=
  let md := ti_media x in
  if negb (truthy (getf md (F"discnum"))) && negb (truthy (getf md (F"totaldiscs"))) then Ok p else
    check tvalidate (F"treeinfo.Media") md;
    do q <- add_section p (F"media");
    do dn <- py_int (getf md (F"discnum")); do dn_s <- py_str_num dn;
    do td <- py_int (getf md (F"totaldiscs")); do td_s <- py_str_num td;
    sets q (F"media") [(F"discnum", PStr dn_s); (F"totaldiscs", PStr td_s)].

Definition stage (x : ti) (mv : option str) (k : kind) : ini -> result ini :=
  match k with
  | KHeader => w_header | KRelease => w_release x | KBase => w_base x | KTree => w_tree x | KVariants => w_variants x
  | KChecksums => w_checksums x | KImages => w_images x | KStage2 => w_stage2 x | KMedia => w_media x | KGeneral => ser_general x mv
  end.

Lemma ser_ti_stages x mv : ser_ti x mv = check tvalidate (F"treeinfo.TreeInfo") []; run (stage x mv) kinds [].
Proof.
  (* the last stage is made opaque first: the loop below must stop in front of it, not re-bracket the inside of ser_general *)
  unfold kinds, ser_ti. cbn [run stage]. generalize (ser_general x mv). intros general.
  unfold w_header, w_release, w_base, w_tree, w_variants, w_checksums, w_images, w_stage2, w_media. cbv zeta.
  repeat first [apply bind_ext; intros ? | apply bind_ext_assoc; intros ?]. symmetry. apply bind_ret.
Qed.

Lemma stage_writes x mv k p p' : stage x mv k p = Ok p' -> writes (kind_has k) p p'.
Proof.
  destruct k; cbn [stage]; intros H.
  - inv_bind H as u Gu. inv_bind H as p0 G0.
    exact (section_writes _ _ _ _ _ _ G0 H eq_refl).
  - inv_bind H as u Gu. inv_bind H as p2 G2. inv_bind H as p3 G3.
    apply (writes_trans _ p p3); [exact (section_writes _ _ _ _ _ _ G2 G3 eq_refl)|].
    destruct (truthy _); [exact (ini_set_writes _ _ _ _ _ _ H eq_refl)|exact (ok_writes _ _ _ H)].
  - unfold w_base in H. destruct (truthy _); [|exact (ok_writes _ _ _ H)]. inv_bind H as u Gu. inv_bind H as q Gq.
    exact (section_writes _ _ _ _ _ _ Gq H eq_refl).
  - inv_bind H as u Gu. inv_bind H as p6 G6. inv_bind H as ts_s Gts. inv_bind H as p7 G7. inv_bind H as u' Gv.
    exact (writes_trans _ p p7 p' (section_writes _ _ _ _ _ _ G6 G7 eq_refl) (ini_set_writes _ _ _ _ _ _ H eq_refl)).
  - revert H. apply fold_writes. intros q kv q' Hq. exact (writes_weaken _ _ _ _ variant_kind (ser_tvar_writes _ _ _ _ Hq)).
  - inv_bind H as u Gu. destruct (ti_checksums x) as [|c cs]; [exact (ok_writes _ _ _ H)|]. inv_bind H as q Gq.
    apply (writes_trans _ p q); [exact (add_section_writes _ _ _ _ Gq eq_refl)|].
    revert H. apply fold_writes. intros q0 c0 q' Hq. exact (ini_set_writes _ _ _ _ _ _ Hq eq_refl).
  - unfold w_images in H. destruct (ti_images x) as [|im ims]; [exact (ok_writes _ _ _ H)|]. inv_bind H as u Gu.
    revert H. apply fold_writes. intros q0 pi q' Hq. cbv zeta in Hq. inv_bind Hq as q1 Gq1.
    exact (section_writes _ _ _ _ _ _ Gq1 Hq eq_refl).
  - unfold w_stage2 in H. cbv zeta in H. destruct (_ && _); [exact (ok_writes _ _ _ H)|].
    inv_bind H as u Gu. inv_bind H as q Gq. inv_bind H as q1 Gq1.
    apply (writes_trans _ p q); [exact (add_section_writes _ _ _ _ Gq eq_refl)|]. apply (writes_trans _ q q1).
    + destruct (truthy (getf _ (F"mainimage"))); [exact (ini_set_writes _ _ _ _ _ _ Gq1 eq_refl)|exact (ok_writes _ _ _ Gq1)].
    + destruct (truthy (getf _ (F"instimage"))); [exact (ini_set_writes _ _ _ _ _ _ H eq_refl)|exact (ok_writes _ _ _ H)].
  - unfold w_media in H. cbv zeta in H. destruct (_ && _); [exact (ok_writes _ _ _ H)|].
    inv_bind H as u Gu. inv_bind H as q Gq. inv_bind H as dn Gd. inv_bind H as dn_s Gds. inv_bind H as td Gt. inv_bind H as td_s Gtds.
    exact (section_writes _ _ _ _ _ _ Gq H eq_refl).
  - exact (ser_general_writes _ _ _ _ _ H eq_refl).
Qed.

Theorem ser_ti_frame x mv t : ser_ti x mv = Ok t ->
  NoDup (map fst t) /\
  forall k, exists p p', stage x mv k p = Ok p' /\ forall s, kind_has k s -> assoc s p = None /\ assoc s t = assoc s p'.
Proof.
  rewrite ser_ti_stages. intros H. inv_bind H as u Gu.
  destruct (run_frame kind kind_has (stage x mv) kind_has_disjoint (stage_writes x mv) kinds (proj1 kinds_all) [] t H) as [[_ N] Fr].
  split; [apply N; constructor|]. intros k. exact (Fr k (proj2 kinds_all k)).
Qed.

(* the frame theorem for one section *)
Corollary ser_ti_section x mv t s k : ser_ti x mv = Ok t -> kind_of s = Some k ->
  exists p p', stage x mv k p = Ok p' /\ assoc s p = None /\ assoc s t = assoc s p'.
Proof. intros H Hk. destruct (proj2 (ser_ti_frame x mv t H) k) as (p & p' & G & Fr). exists p, p'. split; [exact G|exact (Fr s Hk)]. Qed.

Definition ex_ti : ti :=
  {| ti_release := [(F"name", PStr (F"Fedora")); (F"short", PStr (F"F")); (F"version", PStr (F"22")); (F"is_layered", PBool false)];
     ti_base_product := [(F"name", PNone); (F"short", PNone); (F"version", PNone)];
     ti_tree := [(F"arch", PStr (F"x86_64")); (F"build_timestamp", PInt 1440000000); (F"platforms", PList [PStr (F"x86_64"); PStr (F"xen")])];
     ti_variants := [(F"Server", TV [(F"id", PStr (F"Server")); (F"uid", PStr (F"Server")); (F"name", PStr (F"Server")); (F"type", PStr (F"variant"))]
                                    [(F"packages", PStr (F"Packages")); (F"repository", PStr (F"."))] [])];
     ti_checksums := []; ti_images := []; ti_stage2 := [(F"mainimage", PNone); (F"instimage", PNone)];
     ti_media := [(F"discnum", PNone); (F"totaldiscs", PNone)] |}.

Example written_release_and_tree_nonvacuous :
  exists t, ser_ti ex_ti None = Ok t /\ ini_get t (F"tree") (F"platforms") = Ok (F"x86_64,xen") /\ ini_get t (F"general") (F"family") = Ok (F"Fedora").
Proof. eexists. split; [vm_compute; reflexivity|]. split; vm_compute; reflexivity. Qed.
