(* C01: the per-architecture path tables of a composeinfo variant survive serialize / deserialize *)
From PM Require Import Model.ComposeInfo Proofs.AssocLemmas Proofs.ImagesManifest Gen.Tables.

Definition tab2 := list (str * list (str * pyval)).
Definition upd2 (name arch : str) (v : pyval) (t : tab2) : tab2 := upd name (fun o => assoc_set arch v (dflt [] o)) t.
Definition get2 (t : tab2) (name arch : str) : option pyval := assoc arch (dflt [] (assoc name t)).

Lemma get2_upd2 t name arch v name' arch' :
  get2 (upd2 name arch v t) name' arch' = if str_eqb name name' && str_eqb arch arch' then Some v else get2 t name' arch'.
Proof.
  unfold get2, upd2. rewrite assoc_upd. destruct (str_eqb_spec name name') as [<-|_]; [|reflexivity]. cbn [dflt andb].
  destruct (str_eqb_spec arch arch') as [<-|Hn]; [apply assoc_set_same|exact (assoc_set_other _ _ _ _ Hn)].
Qed.

(* the double loop, over architectures and inside over categories, as one loop over (arch, name) pairs *)
Definition pairs_of_arches (archs : list str) : list (str * str) :=
  flat_map (fun a => map (fun n => (a, n)) CI_PATH_FIELDS) archs.

Definition setp (val : str -> str -> option pyval) (t : tab2) (p : str * str) : tab2 :=
  match val (fst p) (snd p) with Some v => upd2 (snd p) (fst p) v t | None => t end.

Lemma get2_fold val pairs : forall t name arch,
  get2 (fold_left (setp val) pairs t) name arch =
  if existsb (fun p => str_eqb (fst p) arch && str_eqb (snd p) name) pairs
  then match val arch name with Some v => Some v | None => get2 t name arch end
  else get2 t name arch.
Proof.
  induction pairs as [|[a n] pairs IH]; intros t name arch; cbn [fold_left existsb fst snd]; [reflexivity|].
  rewrite IH.
  assert (G : get2 (setp val t (a, n)) name arch =
              if str_eqb n name && str_eqb a arch then match val a n with Some v => Some v | None => get2 t name arch end
              else get2 t name arch).
  { unfold setp. cbn [fst snd]. destruct (val a n); [apply get2_upd2|destruct (_ && _); reflexivity]. }
  rewrite G. destruct (str_eqb_spec n name) as [->|_], (str_eqb_spec a arch) as [->|_]; cbn [andb orb];
    destruct (existsb _ pairs); destruct (val arch name); reflexivity.
Qed.

Lemma setp_ext (f g : str -> str -> option pyval) pairs : forall t,
  (forall p, In p pairs -> f (fst p) (snd p) = g (fst p) (snd p)) ->
  fold_left (setp f) pairs t = fold_left (setp g) pairs t.
Proof.
  induction pairs as [|p pairs IH]; intros t H; [reflexivity|]. cbn [fold_left].
  unfold setp at 2 4. rewrite (H p (or_introl eq_refl)). apply IH. intros q Hq. apply H. right. exact Hq.
Qed.

Definition strs_of (l : list pyval) : option (list str) :=
  fold_right (fun v acc => match v, acc with PStr s, Some r => Some (s :: r) | _, _ => None end) (Some []) l.

(* [e] embeds a table into the state of the writer's or the reader's loop.  The inner loop is the hypothesis, stated for a
   variable outer step [h]: with a concrete one written out, the kernel checks
   [fold_left h (PStr s :: l) (e t) = fold_left h l (e (..))] by comparing two 14-fold unrollings of the inner loop branch
   by branch, which takes minutes. *)
Lemma arch_loop {S} (e : tab2 -> S) (h : S -> pyval -> S) (f : tab2 -> str * str -> tab2) :
  (forall s t, h (e t) (PStr s) = e (fold_left f (map (fun n => (s, n)) CI_PATH_FIELDS) t)) ->
  forall l archs t, strs_of l = Some archs -> fold_left h l (e t) = e (fold_left f (pairs_of_arches archs) t).
Proof.
  intros Hh. induction l as [|a l IH]; intros archs t Hs; cbn [strs_of fold_right] in Hs.
  - injection Hs as <-. reflexivity.
  - destruct a as [| | | |s| |]; try discriminate.
    destruct (fold_right _ (Some []) l) as [r|] eqn:Er; [|discriminate]. injection Hs as <-.
    cbn [fold_left pairs_of_arches flat_map]. rewrite fold_left_app, Hh. apply (IH r). exact Er.
Qed.

Lemma pair_loop {S A} (e : tab2 -> S) (step : S -> A -> S) (f : tab2 -> str * A -> tab2) s :
  (forall t n, step (e t) n = e (f t (s, n))) ->
  forall names t, fold_left step names (e t) = e (fold_left f (map (fun n => (s, n)) names) t).
Proof. intros H. induction names as [|n names IH]; intros t; [reflexivity|]. cbn [fold_left map]. rewrite H. apply IH. Qed.

(* the writer, without the PDict wrappers *)
Definition path_val (paths : tab2) (arch name : str) : option pyval :=
  match assoc arch (dflt [] (assoc name paths)) with
  | Some v => if truthy v then Some v else None
  | None => None
  end.

Definition ser_paths_tab (archs : list str) (paths : tab2) : tab2 :=
  fold_left (setp (path_val paths)) (pairs_of_arches archs) [].

Lemma fold_names (f : tab2 -> str * str -> tab2) a names t :
  fold_left (fun acc n => f acc (a, n)) names t = fold_left f (map (fun n => (a, n)) names) t.
Proof. exact (pair_loop (fun t => t) _ f a (fun _ _ => eq_refl) names t). Qed.

Lemma ser_paths_shape arches archs paths :
  strs_of (sort_set arches) = Some archs ->
  ser_paths arches paths = PDict (map_snd PDict (ser_paths_tab archs paths)).
Proof.
  intros Hs. unfold ser_paths. f_equal. apply (arch_loop (map_snd PDict)) with (t := []); [|exact Hs].
  intros s t. apply (pair_loop (map_snd PDict)). intros t0 n. unfold setp, path_val. cbn [fst snd].
  destruct (assoc s _) as [v|]; [|reflexivity]. destruct (truthy v); [|reflexivity].
  symmetry. apply upd_map_snd. destruct (assoc n t0); reflexivity.
Qed.

(* what is written, and so read back: exactly the truthy entries for the variant's architectures *)
Theorem ser_paths_tab_get archs paths name arch :
  get2 (ser_paths_tab archs paths) name arch =
  if existsb (fun p => str_eqb (fst p) arch && str_eqb (snd p) name) (pairs_of_arches archs) then path_val paths arch name else None.
Proof.
  unfold ser_paths_tab. rewrite get2_fold. destruct (existsb _ _); [destruct (path_val paths arch name); reflexivity|reflexivity].
Qed.

Lemma ser_paths_tab_idem archs paths : ser_paths_tab archs (ser_paths_tab archs paths) = ser_paths_tab archs paths.
Proof.
  apply setp_ext. intros [a n] Hin. cbn [fst snd]. unfold path_val at 1. fold (get2 (ser_paths_tab archs paths) n a).
  rewrite ser_paths_tab_get.
  replace (existsb _ _) with true by (symmetry; apply existsb_exists; exists (a, n); cbn [fst snd]; rewrite !str_eqb_refl; auto).
  unfold path_val. destruct (assoc a _) as [v|]; [|reflexivity]. destruct (truthy v) eqn:E; [rewrite E|]; reflexivity.
Qed.

Lemma ser_paths_of_written a archs paths : strs_of (sort_set a) = Some archs -> ser_paths a (ser_paths_tab archs paths) = ser_paths a paths.
Proof. intros H. rewrite (ser_paths_shape a archs _ H), (ser_paths_shape a archs paths H), ser_paths_tab_idem. reflexivity. Qed.

Theorem paths_roundtrip arches archs paths :
  strs_of (sort_set arches) = Some archs ->
  deser_paths arches (ser_paths arches paths) = Ok (ser_paths_tab archs paths).
Proof.
  intros Hs. rewrite (ser_paths_shape arches archs paths Hs). rewrite <- (ser_paths_tab_idem archs paths) at 2.
  apply (arch_loop Ok); [|exact Hs]. intros s t. cbn [bind]. apply (pair_loop Ok). intros t0 n. cbn [bind].
  unfold setp, path_val, upd2, dget_default at 1. cbn [fst snd]. rewrite assoc_map_snd.
  destruct (assoc n _) as [d|]; cbn [option_map dflt dget_default assoc bind]; [destruct (assoc s d) as [v|]; cbn [dflt]|];
    try destruct (truthy v); reflexivity.
Qed.

Example paths_roundtrip_nonvacuous :
  let arches := [PStr (F"x86_64"); PStr (F"ppc64le"); PStr (F"x86_64")] in
  let paths := [(F"os_tree", [(F"x86_64", PStr (F"Server/x86_64/os")); (F"s390x", PStr (F"Server/s390x/os"))]);
                (F"packages", [(F"ppc64le", PStr (F"Server/ppc64le/os/Packages")); (F"x86_64", PStr [])])] in
  strs_of (sort_set arches) = Some [F"ppc64le"; F"x86_64"] /\
  get2 (ser_paths_tab [F"ppc64le"; F"x86_64"] paths) (F"os_tree") (F"x86_64") = Some (PStr (F"Server/x86_64/os")) /\
  get2 (ser_paths_tab [F"ppc64le"; F"x86_64"] paths) (F"os_tree") (F"s390x") = None /\
  get2 (ser_paths_tab [F"ppc64le"; F"x86_64"] paths) (F"packages") (F"x86_64") = None.
Proof. repeat split; vm_compute; reflexivity. Qed.
