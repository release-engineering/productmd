(* C01: what the composeinfo writer puts into the flat uid-keyed "variants" mapping, for whole forests of any depth *)
From PM Require Import Model.ComposeInfo Proofs.Monad Proofs.ListLemmas Proofs.LoadValid Proofs.ReleaseRoundtrip.

Lemma nodup_app {A} (a b : list A) : NoDup a -> NoDup b -> (forall x, In x a -> In x b -> False) -> NoDup (a ++ b).
Proof. exact (NoDup_app_intro a b). Qed.

Section vtree_induction.
  Variable P : vtree -> Prop.
  Hypothesis step : forall f p r cs, (forall k c, In (k, c) cs -> P c) -> P (VT f p r cs).
  Fixpoint vtree_ind2 (t : vtree) : P t :=
    match t with
    | VT f p r cs =>
        step f p r cs
          ((fix go (cs : list (str * vtree)) : forall k c, In (k, c) cs -> P c :=
              match cs with
              | [] => fun k c H => match H with end
              | (k0, c0) :: cs' => fun k c H =>
                  match H with
                  | or_introl E => eq_ind c0 P (vtree_ind2 c0) c (f_equal snd E)
                  | or_intror H' => go cs' k c H'
                  end
              end) cs)
    end.
End vtree_induction.

(* forests as the object of induction: the children of the first tree, then its siblings *)
Lemma forest_ind (P : list (str * vtree) -> Prop) :
  P [] -> (forall k f p r cs l, P cs -> P l -> P ((k, VT f p r cs) :: l)) -> forall l, P l.
Proof.
  intros H0 Hc. assert (Ht : forall t k l, P l -> P ((k, t) :: l)).
  { induction t as [f p r cs IH] using vtree_ind2. intros k l Hl. apply Hc; [|exact Hl].
    induction cs as [|[k0 c0] cs IHcs]; [exact H0|].
    apply (IH k0 c0 (or_introl eq_refl)), IHcs. intros k' c' Hin. apply (IH k' c'). right. exact Hin. }
  induction l as [|[k t] l IHl]; [exact H0|exact (Ht t k l IHl)].
Qed.

Definition uid_s (t : vtree) : str := match getf (vt_fields t) (F"uid") with PStr s => s | _ => [] end.
Definition is_layered_variant (t : vtree) : bool := py_eq (getf (vt_fields t) (F"type")) (PStr (F"layered-product")).

Definition rel_part (t : vtree) : list (str * pyval) :=
  if is_layered_variant t
  then match ser_release release_cls (F"release") (setf (vt_release t) (F"is_layered") (PBool true)) with Ok r => [r] | Err _ => [] end
  else [].

Definition child_ids (t : vtree) : list pyval := sort_set (map (fun kv => getf (vt_fields (snd kv)) (F"id")) (vt_children t)).

Definition dump_of (t : vtree) : pyval :=
  let f := vt_fields t in
  PDict ([(F"id", getf f (F"id")); (F"uid", getf f (F"uid")); (F"name", getf f (F"name")); (F"type", getf f (F"type"));
          (F"arches", PList (sort_set (arches_of f)))]
         ++ rel_part t ++ [(F"paths", ser_paths (arches_of f) (vt_paths t))]
         ++ match vt_children t with [] => [] | _ => [(F"variants", PList (child_ids t))] end).

(* the entries of a subtree, children first (the writer's order) *)
Fixpoint flat (t : vtree) : list (str * pyval) :=
  match t with
  | VT f p r cs =>
      (fix go (cs : list (str * vtree)) : list (str * pyval) :=
         match cs with [] => [] | (_, c) :: cs' => flat c ++ go cs' end) cs
      ++ [(uid_s t, dump_of t)]
  end.

Definition flat_list (cs : list (str * vtree)) : list (str * pyval) := flat_map (fun kc => flat (snd kc)) cs.

Lemma flat_unfold f p r cs : flat (VT f p r cs) = flat_list cs ++ [(uid_s (VT f p r cs), dump_of (VT f p r cs))].
Proof. cbn [flat]. f_equal. apply (fix_app_flat_map flat). Qed.

Lemma flat_list_cons k c cs : flat_list ((k, c) :: cs) = flat c ++ flat_list cs.
Proof. reflexivity. Qed.

Definition uids (t : vtree) : list str := map fst (flat t).
Definition forest_uids (cs : list (str * vtree)) : list str := map fst (flat_list cs).

Lemma forest_uids_cons k c cs : forest_uids ((k, c) :: cs) = uids c ++ forest_uids cs.
Proof. unfold forest_uids, flat_list, uids. cbn [flat_map snd]. apply map_app. Qed.

Lemma uids_unfold f p r cs : uids (VT f p r cs) = forest_uids cs ++ [uid_s (VT f p r cs)].
Proof. unfold uids. rewrite flat_unfold, map_app. reflexivity. Qed.

Definition disjoint (a b : list str) : Prop := forall x, In x a -> In x b -> False.

Definition as_parent (t : vtree) : option (pyval * pyval) := Some (getf (vt_fields t) (F"uid"), getf (vt_fields t) (F"arches")).

Definition ser_children (me : option (pyval * pyval)) :=
  fix go (cs : list (str * vtree)) (d : list (str * pyval)) : result (list (str * pyval)) :=
    match cs with
    | [] => Ok d
    | (_, c) :: cs' => do d' <- ser_variant me c d; go cs' d'
    end.

Definition put (k : str) (v : pyval) (d : list (str * pyval)) : result (list (str * pyval)) :=
  match assoc k d with
  | Some x => if py_eq x v then Ok d else Err ValueError
  | None => Ok (d ++ [(k, v)])
  end.

Lemma put_fresh k v d : ~ In k (keys d) -> put k v d = Ok (d ++ [(k, v)]).
Proof. intros H. unfold put. apply assoc_None in H. rewrite H. reflexivity. Qed.

Lemma ser_variant_eq parent t data :
  ser_variant parent t data =
  (check (if is_layered_variant t
          then do _ <- ser_release release_cls (F"release") (setf (vt_release t) (F"is_layered") (PBool true)); Ok tt
          else Ok tt);
   do d1 <- ser_children (as_parent t) (vt_children t) data;
   do u <- match getf (vt_fields t) (F"uid") with PStr s => Ok s | _ => Err TypeError end;
   do d2 <- put u (dump_of t) d1;
   check validate_tree_node parent t;
   Ok d2).
Proof.
  destruct t as [f paths rel cs]. unfold is_layered_variant, dump_of, rel_part, child_ids, is_layered_variant, as_parent, put.
  cbn [ser_variant vt_fields vt_paths vt_release vt_children].
  destruct (py_eq (getf f (F"type")) _); [destruct (ser_release _ _ _) as [r|e]; [|reflexivity]|]; cbn [bind]; destruct cs; reflexivity.
Qed.

Lemma ser_variant_inv parent t data data' :
  ser_variant parent t data = Ok data' ->
  (is_layered_variant t = true ->
   exists j, ser_release release_cls (F"release") (setf (vt_release t) (F"is_layered") (PBool true)) = Ok (F"release", j)) /\
  exists d1, ser_children (as_parent t) (vt_children t) data = Ok d1 /\ put (uid_s t) (dump_of t) d1 = Ok data' /\
             validate_tree_node parent t = Ok tt.
Proof.
  rewrite ser_variant_eq. intros H. inv_bind H as ? Hr. inv_bind H as d1 Hc. inv_bind H as u Hu.
  assert (Eu : uid_s t = u) by (unfold uid_s; destruct (getf (vt_fields t) (F"uid")); try discriminate; congruence).
  inv_bind H as d2 Hp. inv_bind H as [] Hv. injection H as <-. split.
  - intros Hl. rewrite Hl in Hr. inv_bind Hr as r Hr'. destruct (ser_release_inv _ _ _ _ Hr') as [_ ->]. eauto.
  - rewrite Eu. eauto.
Qed.

(* the loop over the children, as the model's top level writes it *)
Lemma ser_children_fold me cs : forall data,
  ser_children me cs data = fold_left (fun acc kv => do d <- acc; ser_variant me (snd kv) d) cs (Ok data).
Proof.
  induction cs as [|[k c] cs IH]; intros data; [reflexivity|]. cbn [ser_children fold_left snd bind].
  destruct (ser_variant me c data) as [d|e]; cbn [bind]; [apply IH|symmetry; apply fold_bind_err].
Qed.

Lemma ser_children_cons me k c l data d :
  ser_children me ((k, c) :: l) data = Ok d -> exists d', ser_variant me c data = Ok d' /\ ser_children me l d' = Ok d.
Proof. apply bind_ok. Qed.

Lemma keys_app_incl {A} (d e : list (str * A)) pre : incl (keys d) pre -> incl (keys (d ++ e)) (pre ++ keys e).
Proof. intros H. unfold keys. rewrite map_app. apply incl_app_app; [exact H|apply incl_refl]. Qed.

(* [pre] lists the keys in use: those of [data], then those of the entries written so far *)
Lemma ser_children_flat cs : forall me data data1 pre,
  ser_children me cs data = Ok data1 -> incl (keys data) pre -> NoDup (pre ++ forest_uids cs) ->
  data1 = data ++ flat_list cs /\ children_valid me cs.
Proof.
  induction cs as [|k f paths rel cs l IHcs IHl] using forest_ind; intros me data data1 pre H Hi Hn.
  - injection H as <-. rewrite app_nil_r. split; [reflexivity|intros ? ? []].
  - apply ser_children_cons in H. destruct H as (d' & H1 & H). destruct (ser_variant_inv _ _ _ _ H1) as (_ & d1 & Hc & Hp & Hv).
    rewrite forest_uids_cons, app_assoc in Hn. pose proof (proj1 (nodup_app_inv _ _ Hn)) as Hn1. rewrite uids_unfold, app_assoc in Hn1.
    (* the children of the first tree, its own entry under a key not yet in use, then the siblings *)
    destruct (IHcs _ _ _ pre Hc Hi (proj1 (nodup_app_inv _ _ Hn1))) as [-> V1].
    rewrite put_fresh in Hp
      by (intros Hin; apply (NoDup_remove_2 _ _ _ Hn1); rewrite app_nil_r; exact (keys_app_incl _ _ _ Hi _ Hin)).
    injection Hp as <-. rewrite <- app_assoc, <- flat_unfold in H.
    destruct (IHl me _ _ (pre ++ uids (VT f paths rel cs)) H (keys_app_incl _ _ _ Hi) Hn) as [-> V2].
    split; [symmetry; apply app_assoc|]. intros k' c' [E|Hin]; [injection E as <- <-|exact (V2 k' c' Hin)].
    apply tree_valid_unfold. split; assumption.
Qed.

Theorem ser_variant_spec t : forall parent data data',
  ser_variant parent t data = Ok data' -> disjoint (uids t) (keys data) -> NoDup (uids t) ->
  data' = data ++ flat t /\ tree_valid parent t.
Proof.
  (* the tree as a forest of one *)
  intros parent data data' H Hd Hn.
  destruct (ser_children_flat [([], t)] parent data data' (nodup str_eq_dec (keys data))) as [E V].
  - cbn [ser_children]. rewrite H. reflexivity.
  - intros x Hx. apply nodup_In. exact Hx.
  - rewrite forest_uids_cons. cbn. rewrite app_nil_r.
    apply nodup_app; [apply NoDup_nodup|exact Hn|]. intros x Hx Hu. apply nodup_In in Hx. exact (Hd x Hu Hx).
  - rewrite flat_list_cons in E. cbn in E. rewrite app_nil_r in E. split; [exact E|exact (V [] t (or_introl eq_refl))].
Qed.

Lemma ser_variants_inv vs j :
  ser_variants vs = Ok j -> validate_container vs = Ok tt /\ exists d, j = PDict d /\ ser_children None (sort_keys vs) [] = Ok d.
Proof.
  unfold ser_variants. intros H. inv_bind H as [] Hv. inv_bind H as d Hf. injection H as <-.
  rewrite <- ser_children_fold in Hf. eauto.
Qed.

Theorem ser_variants_written vs d :
  ser_variants vs = Ok (PDict d) -> NoDup (forest_uids (sort_keys vs)) ->
  d = flat_list (sort_keys vs) /\ children_valid None (sort_keys vs) /\ validate_container vs = Ok tt.
Proof.
  intros H Hn. destruct (ser_variants_inv _ _ H) as (Hv & d0 & E & Hc). injection E as ->.
  destruct (ser_children_flat _ None _ _ [] Hc (incl_refl _) Hn) as [-> V]. auto.
Qed.
