(* C04 (.discinfo): the reader returns exactly the object the writer was given - timestamp token, description, arch, disc numbers *)
From PM Require Import Base.PyVal Base.Obj Model.Common Model.TreeInfo Proofs.Monad Proofs.ListLemmas
  Proofs.TextLemmas.

Lemma forallb_not_in {A} (p : A -> bool) l c : forallb p l = true -> p c = false -> ~ In c l.
Proof. exact (forallb_notin p l c). Qed.

Lemma mapM_show zs :
  mapM (fun v => match v with PInt _ | PBool _ => py_str_num v | PStr s => Ok s | _ => Err OtherError end) (map PInt zs) = Ok (map show_Z zs).
Proof. induction zs as [|z zs IH]; [reflexivity|]. cbn [map mapM py_str_num bind]. rewrite IH. reflexivity. Qed.

Lemma mapM_read zs : mapM (fun s => py_int (PStr s)) (map show_Z zs) = Ok (map PInt zs).
Proof. induction zs as [|z zs IH]; [reflexivity|]. cbn [map mapM]. rewrite py_int_show_Z. cbn [bind]. rewrite IH. reflexivity. Qed.

Definition fchar (c : chr) : bool := is_digit c || N.eqb c 46.

Lemma canonical_chars t : canonical_float t = true -> forallb fchar t = true.
Proof.
  unfold canonical_float. destruct (split_first c_dot t) as [[ip fr]|] eqn:E; [|discriminate].
  intros H. apply split_first_some in E. destruct E as [-> _].
  repeat (apply andb_true_iff in H; destruct H as [H ?]).
  assert (D : forall s, forallb is_digit s = true -> forallb fchar s = true).
  { intros s. apply forallb_imp. intros x Hx. unfold fchar. rewrite Hx. reflexivity. }
  rewrite forallb_app. cbn [forallb]. rewrite (D ip), (D fr) by assumption. reflexivity.
Qed.

Definition text_line (s : str) : Prop := s <> [] /\ ~ In c_nl s /\ strip_ws s = s.

(* the fourth line when the disc numbers are integers: a clean line that does not spell ALL and reads back *)
Lemma numbers_line zs (nt := join [c_comma] (map show_Z zs)) : zs <> [] ->
  text_line nt /\
  (if match nt with [] => true | _ => false end || str_eqb nt (F"ALL") then Ok [PStr (F"ALL")]
   else mapM (fun s => py_int (PStr s)) (split c_comma nt)) = Ok (map PInt zs).
Proof.
  intros Hz.
  assert (Hch : forallb (fun c => numchar c || N.eqb c c_comma) nt = true).
  { apply forallb_join; [reflexivity|]. intros x Hx. apply in_map_iff in Hx. destruct Hx as (z & <- & _).
    generalize (show_Z_numchars z). apply forallb_imp. intros c Hc. rewrite Hc. reflexivity. }
  assert (Hne : nt <> []).
  { unfold nt. destruct zs as [|z zs]; [congruence|]. pose proof (show_Z_nonempty z) as Hz1. cbn [map].
    destruct (map show_Z zs); cbn [join]; [exact Hz1|]. destruct (show_Z z); [congruence|discriminate]. }
  repeat split; [exact Hne|exact (forallb_not_in _ nt c_nl Hch eq_refl)| |].
  - apply strip_ws_nows. revert Hch. apply forallb_imp. intros c Hc. apply orb_true_iff in Hc.
    destruct Hc as [Hc|Hc]; [rewrite (digit_or_not_ws 45 c eq_refl Hc)|apply N.eqb_eq in Hc; subst c]; reflexivity.
  - replace (_ || str_eqb nt (F"ALL")) with false.
    2:{ destruct nt as [|c nt'] eqn:En; [congruence|]. symmetry. apply str_eqb_neq. intros E. injection E as -> _. discriminate Hch. }
    unfold nt. rewrite split_join.
    + apply mapM_read.
    + destruct zs; [congruence|discriminate].
    + intros x Hx. apply in_map_iff in Hx. destruct Hx as (z & <- & _). exact (forallb_not_in numchar _ c_comma (show_Z_numchars z) eq_refl).
Qed.

Theorem di_roundtrip t desc arch nums text :
  let d := {| di_timestamp := PFloat t; di_description := PStr desc; di_arch := PStr arch; di_disc_numbers := PList nums |} in
  canonical_float t = true -> text_line desc -> strip_quotes desc = desc -> text_line arch ->
  (nums = [PStr (F"ALL")] \/ exists zs, zs <> [] /\ nums = map PInt zs) ->
  dump_di d = Ok text -> load_di text = Ok d.
Proof.
  intros d Ht (Hd1 & Hd2 & Hd3) Hq (Ha1 & Ha2 & Ha3) Hn Hw.
  pose proof (canonical_chars t Ht) as Hfc.
  assert (Htw : strip_ws t = t).
  { apply strip_ws_nows. revert Hfc. apply forallb_imp. intros c Hc. rewrite (digit_or_not_ws 46 c eq_refl Hc). reflexivity. }
  pose proof (forallb_not_in fchar t c_nl Hfc eq_refl) as Htn.
  (* the writer: four lines, the last of which the reader turns back into nums *)
  assert (Hnt : exists nt, text = join [c_nl] [t; desc; arch; nt] /\ text_line nt /\
            (if match nt with [] => true | _ => false end || str_eqb nt (F"ALL") then Ok [PStr (F"ALL")]
             else mapM (fun s => py_int (PStr s)) (split c_comma nt)) = Ok nums /\
            validate_with customs_di (F"discinfo.DiscInfo") (di_obj d) = Ok tt).
  { unfold dump_di in Hw. inv_bind Hw as u Hv. destruct u. cbn [di_timestamp di_description di_arch di_disc_numbers d] in Hw.
    cbn [bind py_strip] in Hw. rewrite Htw, Hd3, Ha3 in Hw.
    destruct Hn as [->|(zs & Hz & ->)].
    - change (py_eq (PList [PStr (F"ALL")]) (PList [PStr (F"ALL")])) with true in Hw. cbn [bind] in Hw. injection Hw as <-.
      exists (F"ALL"). split; [reflexivity|]. split; [|split; [reflexivity|exact Hv]].
      split; [discriminate|]. split; [vm_compute; intuition discriminate|reflexivity].
    - assert (Epy : py_eq (PList (map PInt zs)) (PList [PStr (F"ALL")]) = false) by (destruct zs as [|z zs]; [congruence|reflexivity]).
      rewrite Epy, mapM_show in Hw. cbn [bind] in Hw. injection Hw as <-.
      destruct (numbers_line zs Hz) as [Hl Hr]. exists (join [c_comma] (map show_Z zs)). auto. }
  destruct Hnt as (nt & -> & (Hne & Hnn & Hns) & Hnums & Hv).
  (* the reader: the four lines come back as they are *)
  assert (Hl : di_lines (join [c_nl] [t; desc; arch; nt]) = [t; desc; arch; nt]).
  { unfold di_lines. rewrite split_join.
    - cbn [rev app]. destruct nt as [|c nt'] eqn:En; [congruence|]. rewrite <- En in *. cbn [map]. rewrite Htw, Hd3, Ha3, Hns. reflexivity.
    - discriminate.
    - intros x [<-|[<-|[<-|[<-|[]]]]]; assumption. }
  unfold load_di. rewrite Hl. cbv zeta. cbn [nth_error of_option bind]. rewrite Htw. unfold float_of_text. rewrite Ht. cbn [bind].
  rewrite Hd3, Hq, Ha3, Hns, Hnums. cbn [bind]. fold d. rewrite Hv. reflexivity.
Qed.

Example di_roundtrip_nonvacuous :
  let d := {| di_timestamp := PFloat (F"1440000000.123"); di_description := PStr (F"Fedora 22"); di_arch := PStr (F"x86_64");
              di_disc_numbers := PList (map PInt [1; 2; 3]%Z) |} in
  canonical_float (F"1440000000.123") = true /\ text_line (F"Fedora 22") /\ strip_quotes (F"Fedora 22") = F"Fedora 22" /\
  text_line (F"x86_64") /\ dump_di d = Ok (join [c_nl] [F"1440000000.123"; F"Fedora 22"; F"x86_64"; F"1,2,3"]) /\
  load_di (join [c_nl] [F"1440000000.123"; F"Fedora 22"; F"x86_64"; F"1,2,3"]) = Ok d.
Proof.
  cbv zeta. split; [vm_compute; reflexivity|]. split.
  { split; [discriminate|]. split; [vm_compute; intuition discriminate|vm_compute; reflexivity]. }
  split; [vm_compute; reflexivity|]. split.
  { split; [discriminate|]. split; [vm_compute; intuition discriminate|vm_compute; reflexivity]. }
  split; vm_compute; reflexivity.
Qed.

(* the hypotheses as an executable test, which the harness runs on every generated .discinfo object *)
Lemma line_okb_sound s : line_okb s = true -> text_line s.
Proof.
  unfold line_okb, text_line. intros H. apply andb_true_iff in H. destruct H as [H H3]. apply andb_true_iff in H. destruct H as [H1 H2].
  split; [destruct s; [discriminate|discriminate]|]. split; [apply memc_false; apply negb_true_iff; exact H2|apply str_eqb_eq; exact H3].
Qed.

Lemma all_pint nums : forallb is_pint nums = true -> exists zs, nums = map PInt zs.
Proof.
  induction nums as [|v nums IH]; cbn [forallb]; [exists []; reflexivity|]. intros H. apply andb_true_iff in H. destruct H as [Hv Hn].
  destruct v; try discriminate. destruct (IH Hn) as (zs & ->). exists (z :: zs). reflexivity.
Qed.

Theorem di_roundtrip_checked d text : di_applicableb d = true -> dump_di d = Ok text -> load_di text = Ok d.
Proof.
  destruct d as [ts de ar dn]. unfold di_applicableb. cbn [di_timestamp di_description di_arch di_disc_numbers].
  destruct ts; try discriminate. destruct de; try discriminate. destruct ar; try discriminate. destruct dn; try discriminate.
  intros H. apply andb_true_iff in H. destruct H as [H Hn]. apply andb_true_iff in H. destruct H as [H Ha].
  apply andb_true_iff in H. destruct H as [H Hq]. apply andb_true_iff in H. destruct H as [Ht Hd].
  apply di_roundtrip; [exact Ht|exact (line_okb_sound _ Hd)|apply str_eqb_eq; exact Hq|exact (line_okb_sound _ Ha)|].
  apply orb_true_iff in Hn. destruct Hn as [Hn|Hn].
  - left. destruct l as [|v l0]; [discriminate Hn|]. destruct v; try discriminate Hn. destruct l0; [|discriminate Hn].
    apply str_eqb_eq in Hn. subst. reflexivity.
  - right. apply andb_true_iff in Hn. destruct Hn as [Hne Hall]. destruct (all_pint _ Hall) as (zs & ->). exists zs.
    split; [intros ->; discriminate Hne|reflexivity].
Qed.
