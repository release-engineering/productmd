(* C19: for expressions meeting the syntactic criterion [safe], the number of exits and the work of the exhaustive
   exploration are polynomial in the length of the input (exits_bound, work_bound).  The one idea: the exits of a
   safe star are distinct suffixes of the input (star_ok_nodup), so there are at most length s + 1 of them. *)
From PM Require Import Base.RegexCost Proofs.ListLemmas.
Open Scope nat_scope.

Definition suffix (x s : str) : Prop := exists u, s = u ++ x.

Lemma suffix_refl s : suffix s s.
Proof. exists []. reflexivity. Qed.

Lemma suffix_trans x y z : suffix x y -> suffix y z -> suffix x z.
Proof. intros [u ->] [v ->]. exists (v ++ u). rewrite app_assoc. reflexivity. Qed.

Lemma suffix_len x s : suffix x s -> length x <= length s.
Proof. intros [u ->]. rewrite app_length. lia. Qed.

Lemma suffix_len_eq x y s : suffix x s -> suffix y s -> length x = length y -> x = y.
Proof.
  intros [u ->] [v H] Hl.
  destruct (app_eq_app _ _ _ _ H) as (l & [[_ ->]|[_ ->]]); rewrite app_length in Hl; (destruct l; [reflexivity|cbn in Hl; lia]).
Qed.

Lemma suffix_cons x a s : suffix x s -> suffix x (a :: s).
Proof. intros [u ->]. exists (a :: u). reflexivity. Qed.

(* distinct suffixes of s have distinct lengths, all at most length s *)
Lemma NoDup_suffix_len l s : NoDup l -> (forall x, In x l -> suffix x s) -> length l <= length s + 1.
Proof.
  intros Hnd Hs.
  assert (Hm : NoDup (map (@length chr) l)).
  { induction Hnd as [|x l Hx Hnd IH]; cbn; constructor; [|apply IH; intros y Hy; apply Hs; right; exact Hy].
    intros Hin. apply in_map_iff in Hin. destruct Hin as (y & Hl & Hy). destruct Hx.
    rewrite (suffix_len_eq x y s); auto using in_eq, in_cons. }
  assert (Hi : incl (map (@length chr) l) (seq 0 (length s + 1))).
  { intros n Hn. apply in_map_iff in Hn. destruct Hn as (y & <- & Hy). apply in_seq.
    pose proof (suffix_len y s (Hs y Hy)). lia. }
  pose proof (NoDup_incl_length Hm Hi) as H. rewrite map_length, seq_length in H. exact H.
Qed.

Fixpoint cls_all (Q : cset -> Prop) (r : re) : Prop :=
  match r with
  | Cls c => Q c
  | Cat a b | Alt a b => cls_all Q a /\ cls_all Q b
  | Star a | Grp _ a => cls_all Q a
  | _ => True
  end.

(* every exit is reached from the input by steps over characters of the classes of r: whatever
   reflexive and transitive relation those steps are in relates the input to the exit *)
Section Exits.
  Variables (Q : cset -> Prop) (R : str -> str -> Prop).
  Hypothesis Rrefl : forall s, R s s.
  Hypothesis Rtrans : forall s t x, R s t -> R t x -> R s x.
  Hypothesis Rstep : forall c y s, Q c -> cs_mem y c = true -> R (y :: s) s.

  Lemma star_exits_rel f : (forall s x, In x (f s) -> R s x) -> forall n s x, In x (star_exits f n s) -> R s x.
  Proof.
    intros Hf n. induction n as [|n IH]; intros s x Hin; cbn [star_exits] in Hin.
    - destruct Hin as [<-|[]]. apply Rrefl.
    - apply in_app_or in Hin. destruct Hin as [Hin|[<-|[]]]; [|apply Rrefl].
      apply in_flat_map in Hin. destruct Hin as (s' & Hs' & Hx).
      destruct (Nat.ltb (length s') (length s)); [|destruct Hx].
      exact (Rtrans _ _ _ (Hf _ _ Hs') (IH _ _ Hx)).
  Qed.

  Lemma exits_rel r : cls_all Q r -> forall s x, In x (exits r s) -> R s x.
  Proof.
    induction r as [|cs|a IHa b IHb|a IHa b IHb|a IHa| | |n a IHa|]; cbn [cls_all]; intros Hc s x Hin; cbn [exits] in Hin.
    - destruct Hin as [<-|[]]. apply Rrefl.
    - destruct s as [|y s']; [destruct Hin|]. destruct (cs_mem y cs) eqn:E; [|destruct Hin].
      destruct Hin as [<-|[]]. exact (Rstep cs y s' Hc E).
    - destruct Hc as [Ha Hb]. apply in_flat_map in Hin. destruct Hin as (s' & Hs' & Hx).
      exact (Rtrans _ _ _ (IHa Ha _ _ Hs') (IHb Hb _ _ Hx)).
    - destruct Hc as [Ha Hb]. apply in_app_or in Hin. destruct Hin as [H|H]; [exact (IHa Ha s x H)|exact (IHb Hb s x H)].
    - exact (star_exits_rel (exits a) (IHa Hc) _ s x Hin).
    - destruct Hin as [<-|[]]. apply Rrefl.
    - destruct s as [|y [|z s']]; [|destruct (N.eqb y 10); [|destruct Hin]|destruct Hin];
        destruct Hin as [<-|[]]; apply Rrefl.
    - exact (IHa Hc s x Hin).
    - destruct Hin.
  Qed.
End Exits.

Lemma cls_all_true r : cls_all (fun _ => True) r.
Proof. induction r; cbn; auto. Qed.

Lemma star_exits_suffix f n s x : (forall s x, In x (f s) -> suffix x s) -> In x (star_exits f n s) -> suffix x s.
Proof.
  intros Hf. apply (star_exits_rel (fun s x => suffix x s) suffix_refl (fun s t x H1 H2 => suffix_trans x t s H2 H1) f Hf).
Qed.

Lemma exits_suffix r s x : In x (exits r s) -> suffix x s.
Proof.
  apply (exits_rel (fun _ => True) (fun s x => suffix x s) suffix_refl (fun s t x H1 H2 => suffix_trans x t s H2 H1)).
  - intros c y s' _ _. apply suffix_cons, suffix_refl.
  - apply cls_all_true.
Qed.

Definition consumed (P : chr -> Prop) (s x : str) : Prop := exists u, s = u ++ x /\ Forall P u.

Lemma consumed_trans P s t x : consumed P s t -> consumed P t x -> consumed P s x.
Proof.
  intros (u1 & -> & H1) (u2 & -> & H2). exists (u1 ++ u2). rewrite app_assoc. split; [reflexivity|].
  apply Forall_app. split; assumption.
Qed.

Lemma ranges_disjoint_spec r1 r2 y : ranges_disjoint r1 r2 = true -> in_ranges y r1 = true -> in_ranges y r2 = false.
Proof.
  unfold ranges_disjoint, in_ranges. intros Hd H1.
  apply existsb_exists in H1. destruct H1 as (a & Ha & Hya).
  destruct (existsb _ r2) eqn:E; [|reflexivity]. exfalso.
  apply existsb_exists in E. destruct E as (b & Hb & Hyb).
  rewrite forallb_forall in Hd. specialize (Hd a Ha). rewrite forallb_forall in Hd. specialize (Hd b Hb).
  lia.
Qed.

Lemma cs_disjoint_spec c d y : cs_disjoint c d = true -> cs_mem y c = true -> cs_mem y d = false.
Proof.
  destruct c as [[|] r1], d as [[|] r2]; cbn [cs_disjoint]; try discriminate.
  intros Hd H1. cbn [cs_mem] in *. destruct (in_ranges y r1) eqn:E1; [|discriminate].
  rewrite (ranges_disjoint_spec r1 r2 y Hd E1). reflexivity.
Qed.

Lemma dfree_cls_all d r : dfree d r = true -> cls_all (fun c => cs_disjoint c d = true) r.
Proof.
  induction r; cbn [dfree cls_all]; intros H; auto; apply andb_true_iff in H; destruct H; split; auto.
Qed.

Lemma dfree_consumed d r s x : dfree d r = true -> In x (exits r s) -> consumed (fun y => cs_mem y d = false) s x.
Proof.
  intros Hd. apply (exits_rel (fun c => cs_disjoint c d = true) (consumed _)); [|apply consumed_trans| |apply dfree_cls_all, Hd].
  - intros t. exists []. split; [reflexivity|constructor].
  - intros c y t Hc Hy. exists [y]. split; [reflexivity|]. constructor; [exact (cs_disjoint_spec c d y Hc Hy)|constructor].
Qed.

Lemma star_exits_fuel f : forall n m s, length s < n -> length s < m -> star_exits f n s = star_exits f m s.
Proof.
  induction n as [|n IH]; intros m s Hn Hm; [lia|]. destruct m as [|m]; [lia|]. cbn [star_exits]. f_equal.
  apply flat_map_ext. intros s'. destruct (Nat.ltb_spec (length s') (length s)); [|reflexivity].
  apply IH; lia.
Qed.

Lemma star_nodup f :
  (forall s x, In x (f s) -> suffix x s) -> (forall s, NoDup (f s)) ->
  (forall s x y e n, In x (f s) -> In y (f s) -> x <> y -> In e (star_exits f n x) -> In e (star_exits f n y) -> False) ->
  forall n s, NoDup (star_exits f n s).
Proof.
  intros Hsuf Hnd Hdis n. induction n as [|n IH]; intros s; cbn [star_exits]; [repeat constructor; intros []|].
  apply NoDup_app_intro; [|repeat constructor; intros []|].
  - apply NoDup_flat_map; [apply Hnd| |].
    + intros x _. destruct (Nat.ltb _ _); [apply IH|constructor].
    + intros x y e Hx Hy Hne H1 H2. destruct (Nat.ltb (length x) _), (Nat.ltb (length y) _); try contradiction.
      exact (Hdis s x y e n Hx Hy Hne H1 H2).
  - (* s itself is not among the deeper exits *)
    intros e He [<-|[]]. apply in_flat_map in He. destruct He as (x & _ & He).
    destruct (Nat.ltb_spec (length x) (length s)); [|destruct He].
    apply (star_exits_suffix f n x s Hsuf), suffix_len in He. lia.
Qed.

Lemma cls_exits c s : exits (Cls c) s = [] \/ exists x, exits (Cls c) s = [x].
Proof. cbn [exits]. destruct s as [|y s]; [|destruct (cs_mem y c)]; eauto. Qed.

Lemma cls_exits_nodup c s : NoDup (exits (Cls c) s).
Proof. destruct (cls_exits c s) as [->|[x ->]]; repeat constructor. intros []. Qed.

Lemma cat_cls_nodup c b : (forall s, NoDup (exits b s)) -> forall s, NoDup (exits (Cat (Cls c) b) s).
Proof.
  intros Hb s. cbn [exits]. destruct s as [|y t]; [constructor|]. destruct (cs_mem y c); [|constructor].
  cbn [flat_map]. rewrite app_nil_r. apply Hb.
Qed.

Lemma star_cls_nodup c : forall n s, NoDup (star_exits (exits (Cls c)) n s).
Proof.
  apply star_nodup; [apply exits_suffix|apply cls_exits_nodup|].
  - intros s x' y e n Hx Hy. destruct (cls_exits c s) as [E|[x E]]; rewrite E in Hx, Hy; [destruct Hx|].
    destruct Hx as [<-|[]], Hy as [<-|[]]. congruence.
Qed.

Section Delim.
  Variables (d : cset) (b : re).
  Hypothesis Hd : dfree d b = true.
  Let F := exits (Cat (Cls d) b).

  Lemma delim_exits s x : In x (F s) -> exists y t, s = y :: t /\ consumed (fun z => cs_mem z d = false) t x.
  Proof.
    unfold F. cbn [exits]. destruct s as [|y t]; [intros []|]. destruct (cs_mem y d); [|intros []].
    cbn [flat_map]. rewrite app_nil_r. intros Hx. exists y, t. split; [reflexivity|exact (dfree_consumed d b t x Hd Hx)].
  Qed.

  Lemma delim_stuck n y s e : cs_mem y d = false -> In e (star_exits F n (y :: s)) -> e = y :: s.
  Proof. intros Hy. unfold F. destruct n; cbn [star_exits exits flat_map app]; rewrite ?Hy; intros [<-|[]]; reflexivity. Qed.

  Lemma delim_disjoint n w x e :
    w <> [] -> Forall (fun z => cs_mem z d = false) w -> In e (star_exits F n (w ++ x)) -> In e (star_exits F n x) -> False.
  Proof.
    intros Hw HF H1 H2. destruct w as [|y w]; [congruence|]. apply Forall_inv in HF.
    apply (delim_stuck n y _ e HF) in H1. subst e.
    apply (star_exits_suffix _ n x _ (exits_suffix _)), suffix_len in H2. cbn [app length] in H2. rewrite app_length in H2. lia.
  Qed.
End Delim.

Lemma star_delim_nodup d b :
  dfree d b = true -> (forall s, NoDup (exits b s)) ->
  forall n s, length s < n -> NoDup (star_exits (exits (Cat (Cls d) b)) n s).
Proof.
  intros Hd Hb n s _. (* the bound on the fuel is not needed *) apply star_nodup.
  - apply exits_suffix.
  - exact (cat_cls_nodup d b Hb).
  - (* two exits of the body are suffixes of one string: the longer is stuck on the d-free part the shorter has consumed *)
    intros t x1 x2 e k Hx1 Hx2 Hne H1 H2.
    destruct (delim_exits d b Hd _ _ Hx1) as (y & t1 & -> & u1 & -> & Hu1).
    destruct (delim_exits d b Hd _ _ Hx2) as (y' & t2 & E & u2 & -> & Hu2). injection E as _ E.
    destruct (app_eq_app _ _ _ _ E) as (w & [[-> ->]|[-> ->]]).
    + apply Forall_app in Hu1. apply (delim_disjoint d b k w x1 e); [intros ->; exact (Hne eq_refl)|tauto|exact H2|exact H1].
    + apply Forall_app in Hu2. apply (delim_disjoint d b k w x2 e); [intros ->; exact (Hne eq_refl)|tauto|exact H1|exact H2].
Qed.

Lemma simple_ind (P : re -> Prop) :
  (forall c, P (Cls c)) -> (forall c, P (Star (Cls c))) -> (forall c b, simple b = true -> P b -> P (Cat (Cls c) b)) ->
  forall r, simple r = true -> P r.
Proof.
  intros H1 H2 H3. induction r as [|c|a _ b IHb| |a _| | | |]; cbn [simple]; intros H; try discriminate; [apply H1| |].
  - destruct a; try discriminate. apply H3; [exact H|exact (IHb H)].
  - destruct a; try discriminate. apply H2.
Qed.

Lemma star_ok_inv a : star_ok a = true ->
  (exists c, ungroup a = Cls c) \/ (exists d b, ungroup a = Cat (Cls d) b /\ dfree d b = true /\ simple b = true).
Proof.
  unfold star_ok. destruct (ungroup a) as [|c|x b| | | | | |]; try discriminate; [eauto|].
  destruct x; try discriminate. intros H. apply andb_true_iff in H. right. eauto.
Qed.

Lemma simple_nodup r : simple r = true -> forall s, NoDup (exits r s).
Proof.
  revert r. apply (simple_ind (fun r => forall s, NoDup (exits r s))).
  - exact cls_exits_nodup.
  - intros c s. apply star_cls_nodup.
  - intros c b _. exact (cat_cls_nodup c b).
Qed.

Lemma star_exits_ext f g : (forall s, f s = g s) -> forall n s, star_exits f n s = star_exits g n s.
Proof.
  intros H n. induction n as [|n IH]; intros s; cbn [star_exits]; [reflexivity|].
  rewrite H. f_equal. apply flat_map_ext. intros s'. destruct (Nat.ltb _ _); [apply IH|reflexivity].
Qed.

Lemma exits_ungroup r : forall s, exits (ungroup r) s = exits r s.
Proof.
  induction r as [|cs|a IHa b IHb|a IHa b IHb|a IHa| | |n a IHa|]; intros s; cbn [ungroup exits]; try reflexivity.
  - rewrite IHa. apply flat_map_ext. exact IHb.
  - rewrite IHa, IHb. reflexivity.
  - apply star_exits_ext. exact IHa.
  - apply IHa.
Qed.

Lemma star_ok_nodup a : star_ok a = true -> forall s, NoDup (exits (Star a) s).
Proof.
  intros H s. cbn [exits]. rewrite <- (star_exits_ext _ _ (exits_ungroup a)).
  destruct (star_ok_inv a H) as [[c ->]|(d & b & -> & Hd & Hs)]; [apply star_cls_nodup|].
  apply star_delim_nodup; [exact Hd|apply simple_nodup; exact Hs|lia].
Qed.

Lemma evalP_mono p n m : n <= m -> evalP p n <= evalP p m.
Proof. intros H. unfold evalP. apply Nat.mul_le_mono_l. apply Nat.pow_le_mono_l. lia. Qed.

Lemma evalP_add p q n : evalP p n + evalP q n <= evalP (addP p q) n.
Proof.
  unfold evalP, addP. cbn [fst snd].
  assert (H1 : (n + 1) ^ snd p <= (n + 1) ^ Nat.max (snd p) (snd q)) by (apply Nat.pow_le_mono_r; lia).
  assert (H2 : (n + 1) ^ snd q <= (n + 1) ^ Nat.max (snd p) (snd q)) by (apply Nat.pow_le_mono_r; lia).
  rewrite Nat.mul_add_distr_r. apply Nat.add_le_mono; apply Nat.mul_le_mono_l; assumption.
Qed.

Lemma evalP_mul p q n : evalP p n * evalP q n = evalP (mulP p q) n.
Proof. unfold evalP, mulP. cbn [fst snd]. rewrite Nat.pow_add_r. lia. Qed.

Lemma evalP_one n : evalP oneP n = 1.
Proof. unfold evalP, oneP. cbn. lia. Qed.

Lemma evalP_lin n : evalP (1, 1) n = n + 1.
Proof. unfold evalP. cbn [fst snd]. rewrite Nat.pow_1_r. apply Nat.mul_1_l. Qed.

Lemma sum_map_cons {A} (g : A -> nat) x l : sum_map g (x :: l) = g x + sum_map g l.
Proof. reflexivity. Qed.

Lemma sum_map_nil {A} (g : A -> nat) : sum_map g [] = 0.
Proof. reflexivity. Qed.

Lemma sum_map_app {A} (g : A -> nat) l1 l2 : sum_map g (l1 ++ l2) = sum_map g l1 + sum_map g l2.
Proof. induction l1 as [|x l1 IHl]; cbn [app]; rewrite ?sum_map_cons, ?IHl; [reflexivity|lia]. Qed.

Lemma sum_map_le {A} (f : A -> nat) l B : (forall x, In x l -> f x <= B) -> sum_map f l <= length l * B.
Proof.
  induction l as [|x l IH]; intros H; [apply Nat.le_0_l|]. rewrite sum_map_cons. cbn [length Nat.mul].
  apply Nat.add_le_mono; [apply H; left; reflexivity|apply IH; intros y Hy; apply H; right; exact Hy].
Qed.

Lemma flat_map_length {A B} (f : A -> list B) l : length (flat_map f l) = sum_map (fun x => length (f x)) l.
Proof. induction l as [|x l IH]; cbn [flat_map]; [reflexivity|]. rewrite app_length, IH. reflexivity. Qed.

Lemma sum_map_flat_map {A B} (g : B -> nat) (f : A -> list B) l :
  sum_map g (flat_map f l) = sum_map (fun x => sum_map g (f x)) l.
Proof. induction l as [|x l IH]; [reflexivity|]. cbn [flat_map]. rewrite sum_map_app, sum_map_cons, IH. reflexivity. Qed.

Lemma sum_map_add {A} (f g : A -> nat) l : sum_map (fun x => f x + g x) l = sum_map f l + sum_map g l.
Proof. induction l as [|x l IH]; [reflexivity|]. rewrite !sum_map_cons, IH. lia. Qed.

Lemma sum_map_mono {A} (f g : A -> nat) l : (forall x, f x <= g x) -> sum_map f l <= sum_map g l.
Proof. intros H. induction l as [|x l IH]; [apply Nat.le_refl|]. rewrite !sum_map_cons. apply Nat.add_le_mono; [apply H|exact IH]. Qed.

Lemma sum_map_zero {A} (l : list A) : sum_map (fun _ => 0) l = 0.
Proof. induction l as [|x l IH]; [reflexivity|exact IH]. Qed.

Lemma sum_exits_le g P r s :
  (forall x, g x <= evalP P (length x)) -> sum_map g (exits r s) <= length (exits r s) * evalP P (length s).
Proof.
  intros Hg. apply sum_map_le. intros x Hx. etransitivity; [apply Hg|].
  apply evalP_mono, suffix_len, (exits_suffix r), Hx.
Qed.

Theorem exits_bound r : safe r = true -> forall s, length (exits r s) <= evalP (EP r) (length s).
Proof.
  induction r as [|cs|a IHa b IHb|a IHa b IHb|a IHa| | |n a IHa|]; cbn [safe]; intros H s; try discriminate.
  - cbn. lia.
  - cbn [EP]. rewrite evalP_one. destruct (cls_exits cs s) as [->|[x ->]]; cbn; lia.
  - apply andb_true_iff in H. destruct H as [Ha Hb]. cbn [exits EP]. rewrite flat_map_length, <- evalP_mul.
    etransitivity; [apply (sum_exits_le _ (EP b)), (IHb Hb)|]. apply Nat.mul_le_mono_r, (IHa Ha).
  - apply andb_true_iff in H. destruct H as [Ha Hb]. cbn [exits EP]. rewrite app_length.
    etransitivity; [|apply evalP_add]. apply Nat.add_le_mono; [apply (IHa Ha)|apply (IHb Hb)].
  - (* the exits of a safe star are distinct suffixes of s *)
    cbn [EP]. rewrite evalP_lin.
    apply NoDup_suffix_len; [apply star_ok_nodup; exact H|]. intros x Hx. eapply exits_suffix. exact Hx.
  - cbn. lia.
  - cbn [exits EP]. rewrite evalP_one. destruct s as [|y [|z s']]; cbn; try lia. destruct (N.eqb y 10); cbn; lia.
  - cbn [exits EP]. apply IHa. exact H.
Qed.

Lemma star_work_le w f : forall n s,
  star_work w f n s <= sum_map (fun x => 1 + w x) (star_exits f n s).
Proof.
  induction n as [|n IH]; intros s; cbn [star_work star_exits]; rewrite ?sum_map_app, sum_map_cons, sum_map_nil; [lia|].
  rewrite sum_map_flat_map, Nat.add_0_r, Nat.add_comm. apply Nat.add_le_mono_r, sum_map_mono. intros x.
  destruct (Nat.ltb (length x) (length s)); [apply IH|apply Nat.le_0_l].
Qed.

Lemma simple_safe r : simple r = true -> safe r = true.
Proof. revert r. apply (simple_ind (fun r => safe r = true)); [reflexivity|reflexivity|]. intros c b _ IH. exact IH. Qed.

Lemma star_ok_safe a : star_ok a = true -> safe (ungroup a) = true.
Proof. intros H. destruct (star_ok_inv a H) as [[c ->]|(d & b & -> & _ & Hs)]; [reflexivity|exact (simple_safe b Hs)]. Qed.

Lemma ungroup_idem r : ungroup (ungroup r) = ungroup r.
Proof. induction r; cbn [ungroup]; congruence. Qed.

Lemma safe_ungroup r : safe (ungroup r) = safe r.
Proof.
  induction r as [|cs|a IHa b IHb|a IHa b IHb|a IHa| | |n a IHa|]; cbn [ungroup safe]; try reflexivity; try congruence.
  unfold star_ok. rewrite ungroup_idem. reflexivity.
Qed.

Theorem work_bound r : safe r = true -> forall s, work r s <= evalP (WP r) (length s).
Proof.
  induction r as [|cs|a IHa b IHb|a IHa b IHb|a IHa| | |n a IHa|]; cbn [safe]; intros H s; try discriminate;
    try (cbn [work WP]; rewrite evalP_one; lia).
  - apply andb_true_iff in H. destruct H as [Ha Hb]. cbn [work WP].
    etransitivity; [|apply evalP_add]. apply Nat.add_le_mono.
    + etransitivity; [|apply evalP_add]. rewrite evalP_one. specialize (IHa Ha s). lia.
    + rewrite <- evalP_mul. etransitivity; [apply (sum_exits_le _ (WP b)), (IHb Hb)|].
      apply Nat.mul_le_mono_r, exits_bound, Ha.
  - apply andb_true_iff in H. destruct H as [Ha Hb]. cbn [work WP].
    etransitivity; [|apply evalP_add]. apply Nat.add_le_mono; [|apply (IHb Hb)].
    etransitivity; [|apply evalP_add]. rewrite evalP_one. specialize (IHa Ha s). lia.
  - (* Star: one node and one run of the body per exit of the star *)
    assert (Hsa : safe a = true) by (rewrite <- safe_ungroup; apply star_ok_safe; exact H).
    cbn [work WP]. etransitivity; [apply star_work_le|]. rewrite <- evalP_mul.
    etransitivity; [apply (sum_exits_le _ (addP oneP (WP a)) (Star a))|apply Nat.mul_le_mono_r, (exits_bound (Star a) H)].
    intros x. etransitivity; [|apply evalP_add]. rewrite evalP_one. apply Nat.add_le_mono_l, (IHa Hsa).
  - cbn [work WP]. etransitivity; [|apply evalP_add]. rewrite evalP_one. specialize (IHa H s). lia.
Qed.
