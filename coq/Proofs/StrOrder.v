(* the key-sorted association lists of Base/Obj.v and Base/Json.v are KeyedSort's, sorted by first component *)
From PM Require Import Base.PyVal Base.Obj Base.Json Proofs.KeyedSort.
From PM Require Export Proofs.StrLemmas.
From Coq Require Import Permutation.

Lemma insert_kv_eq k v l : insert_kv k v l = insert_by fst false (k, v) l.
Proof. induction l as [|[k' v'] l IH]; cbn [insert_kv insert_by before fst]; [|rewrite IH]; reflexivity. Qed.

Lemma sort_kv_eq l : sort_kv l = sort_by fst false l.
Proof. induction l as [|[k v] l IH]; cbn [sort_kv sort_by fold_right]; [|rewrite insert_kv_eq, IH]; reflexivity. Qed.

Theorem sort_kv_perm l l' : Permutation l l' -> NoDup (map fst l) -> sort_kv l = sort_kv l'.
Proof. rewrite !sort_kv_eq. apply sort_by_perm_invariant. Qed.

Lemma insert_kv_perm k v l : Permutation (insert_kv k v l) ((k, v) :: l).
Proof. rewrite insert_kv_eq. apply insert_by_perm. Qed.

Lemma sort_kv_is_perm l : Permutation (sort_kv l) l.
Proof. rewrite sort_kv_eq. apply sort_by_is_perm. Qed.

Lemma sort_kv_idem l : NoDup (map fst l) -> sort_kv (sort_kv l) = sort_kv l.
Proof.
  intros H. apply sort_kv_perm; [apply sort_kv_is_perm|].
  apply (Permutation_NoDup (Permutation_sym (Permutation_map fst (sort_kv_is_perm l))) H).
Qed.
