(* What the operations of Base/Ini.v, and [sets] (the writer's loop over ini_set), do to a section table *)
From PM Require Import Base.PyVal Base.Obj Base.Ini Model.TreeInfo Proofs.Monad Proofs.AssocLemmas Proofs.KeyedSort.

Lemma add_section_spec t s t' : add_section t s = Ok t' -> assoc s t = None /\ t' = t ++ [(s, [])].
Proof. unfold add_section, has_section. destruct (assoc s t); [discriminate|]. intros H; injection H as <-. auto. Qed.

Lemma ini_set_spec t s o v t' :
  ini_set t s o v = Ok t' -> exists x opts, v = PStr x /\ assoc s t = Some opts /\ t' = assoc_set s (assoc_set o x opts) t.
Proof. unfold ini_set. destruct v; try discriminate. destruct (assoc s t) as [opts|]; [|discriminate]. intros H; injection H as <-. eauto. Qed.

Lemma ini_get_ext t t' s o : assoc s t' = assoc s t -> ini_get t' s o = ini_get t s o.
Proof. unfold ini_get. intros ->. reflexivity. Qed.

Lemma ini_get_none t s o : assoc s t = None -> ini_get t s o = Err OtherError.
Proof. unfold ini_get. intros ->. reflexivity. Qed.

Lemma has_option_ini t s o : has_option t s o = match ini_get t s o with Ok _ => true | Err _ => false end.
Proof. unfold ini_get, has_option. destruct (assoc s t) as [opts|]; [|reflexivity]. destruct (assoc o opts); reflexivity. Qed.

Lemma opt_get_ini t s o : opt_get t s o = match ini_get t s o with Ok v => PStr v | Err _ => PNone end.
Proof. unfold opt_get, ini_get. destruct (assoc s t) as [opts|]; [|reflexivity]. destruct (assoc o opts); reflexivity. Qed.

Lemma ini_get_has_option t s o v : ini_get t s o = Ok v -> has_option t s o = true.
Proof. intros H. rewrite has_option_ini, H. reflexivity. Qed.

Lemma ini_get_has_section t s o v : ini_get t s o = Ok v -> has_section t s = true.
Proof. unfold ini_get, has_section. destruct (assoc s t); [reflexivity|discriminate]. Qed.

Lemma add_section_fresh t s t' o : add_section t s = Ok t' -> ini_get t' s o = Err OtherError.
Proof.
  intros H. apply add_section_spec in H. destruct H as [E ->]. unfold ini_get. rewrite (assoc_last _ _ _ E). reflexivity.
Qed.

Lemma ini_set_get_same t s o x t' : ini_set t s o (PStr x) = Ok t' -> ini_get t' s o = Ok x.
Proof.
  intros H. apply ini_set_spec in H. destruct H as (x' & opts & E & _ & ->). injection E as <-.
  unfold ini_get. rewrite !assoc_set_same. reflexivity.
Qed.

Lemma ini_set_get_other t s o v t' s' o' :
  ini_set t s o v = Ok t' -> (s' <> s \/ o' <> o) -> ini_get t' s' o' = ini_get t s' o'.
Proof.
  intros H Hne. apply ini_set_spec in H. destruct H as (x & opts & _ & E & ->). unfold ini_get.
  destruct (str_eq_dec s s') as [<-|Hs]; [|rewrite assoc_set_other by exact Hs; reflexivity].
  rewrite assoc_set_same, E, assoc_set_other; [reflexivity|]. destruct Hne; congruence.
Qed.

Lemma ini_set_opt_get t s o v t' : ini_set t s o v = Ok t' ->
  opt_get t' s o = v /\ forall o', o' <> o -> opt_get t' s o' = opt_get t s o'.
Proof.
  intros H. destruct (ini_set_spec _ _ _ _ _ H) as (x & _ & -> & _). rewrite opt_get_ini, (ini_set_get_same _ _ _ _ _ H).
  split; [reflexivity|]. intros o' Ho. rewrite !opt_get_ini, (ini_set_get_other _ _ _ _ _ s o' H); auto.
Qed.

Lemma sets_cons t s k v kvs : sets t s ((k, v) :: kvs) = do t1 <- ini_set t s k v; sets t1 s kvs.
Proof. unfold sets. cbn [fold_left bind fst snd]. destruct (ini_set t s k v); [reflexivity|apply fold_bind_err]. Qed.

Lemma sets_get s kvs : forall t t',
  sets t s kvs = Ok t' -> distinct (map fst kvs) = true ->
  (forall k v, assoc k kvs = Some v -> exists x, v = PStr x /\ ini_get t' s k = Ok x) /\
  (forall o, assoc o kvs = None -> ini_get t' s o = ini_get t s o).
Proof.
  induction kvs as [|[k0 v0] kvs IH]; intros t t' H Hd.
  - injection H as <-. split; [discriminate|reflexivity].
  - rewrite sets_cons in H. inv_bind H as t1 E1. cbn [map fst distinct] in Hd. apply andb_true_iff in Hd. destruct Hd as [Hk0 Hd].
    destruct (IH t1 t' H Hd) as [IH1 IH2]. cbn [assoc]. split.
    + intros k v. destruct (str_eqb_spec k k0) as [->|_]; [|apply IH1]. intros Hv. injection Hv as <-.
      destruct (ini_set_spec _ _ _ _ _ E1) as (x & _ & -> & _). exists x. split; [reflexivity|].
      rewrite IH2; [exact (ini_set_get_same _ _ _ _ _ E1)|]. apply assoc_None. unfold keys. intros Hin. apply mem_str_In in Hin. rewrite Hin in Hk0. discriminate.
    + intros o. destruct (str_eqb_spec o k0) as [->|Hne]; [discriminate|]. intros Ho. rewrite (IH2 o Ho).
      apply (ini_set_get_other _ _ _ _ _ _ _ E1). right. exact Hne.
Qed.

Definition pstr_snd (kx : str * str) : str * pyval := (fst kx, PStr (snd kx)).

Lemma sets_strs s kvs : forall t t', sets t s kvs = Ok t' -> exists xs, kvs = map pstr_snd xs.
Proof.
  induction kvs as [|[k v] kvs IH]; intros t t' H; [exists []; reflexivity|].
  rewrite sets_cons in H. inv_bind H as t1 E1. destruct (ini_set_spec _ _ _ _ _ E1) as (x & _ & -> & _).
  destruct (IH t1 t' H) as (xs & ->). exists ((k, x) :: xs). reflexivity.
Qed.

Lemma sets_last q sec xs : forall o,
  assoc sec q = None -> NoDup (map fst (o ++ xs)) -> sets (q ++ [(sec, o)]) sec (map pstr_snd xs) = Ok (q ++ [(sec, o ++ xs)]).
Proof.
  induction xs as [|[k x] xs IH]; intros o Hq Hnd; [rewrite app_nil_r; reflexivity|].
  change (map pstr_snd ((k, x) :: xs)) with ((k, PStr x) :: map pstr_snd xs). rewrite sets_cons. unfold ini_set. rewrite (assoc_last _ _ _ Hq). cbn [bind].
  rewrite (assoc_set_app_r _ _ _ _ Hq). cbn [assoc_set]. rewrite str_eqb_refl.
  rewrite assoc_set_new.
  - cbn [bind]. rewrite IH, <- app_assoc; [reflexivity|exact Hq|]. rewrite <- app_assoc. exact Hnd.
  - rewrite map_app in Hnd. apply NoDup_remove_2 in Hnd. intros Hin. apply Hnd, in_or_app. left. exact Hin.
Qed.

Lemma section_written q sec xs q1 q2 :
  add_section q sec = Ok q1 -> sets q1 sec (map pstr_snd xs) = Ok q2 -> NoDup (map fst xs) -> assoc sec q = None /\ q2 = q ++ [(sec, xs)].
Proof.
  intros Ga Gs Hnd. apply add_section_spec in Ga. destruct Ga as [Hq ->]. rewrite (sets_last q sec xs [] Hq Hnd) in Gs.
  injection Gs as <-. auto.
Qed.

(* write(): options and sections come out sorted by name; the model's two sorts are instances of KeyedSort.v *)
Lemma sort_opts_eq l : sort_opts l = sort_by fst false l.
Proof. reflexivity. Qed.

Lemma sort_secs_eq t : sort_secs t = sort_by fst false t.
Proof. reflexivity. Qed.

(* the step of the [general] writer that falls back to the source path of a source tree *)
Definition set_or_fallback (p : ini) (sec opt : str) (paths : obj) (k ksrc : str) (src : bool) : result ini :=
  match getf paths k with
  | PNone => if src then match getf paths ksrc with PNone => Ok p | s => ini_set p sec opt s end else Ok p
  | v => ini_set p sec opt v
  end.

Lemma set_or_fallback_spec p sec opt paths k ksrc src q : set_or_fallback p sec opt paths k ksrc src = Ok q ->
  q = p /\ getf paths k = PNone \/
  exists s, ini_set p sec opt (PStr s) = Ok q /\
            (getf paths k = PStr s \/ getf paths k = PNone /\ src = true /\ getf paths ksrc = PStr s).
Proof.
  unfold set_or_fallback. intros H. destruct (getf paths k); try discriminate H; [|right; eauto].
  destruct src; [destruct (getf paths ksrc); try discriminate H|]; try (injection H as <-; left; auto). right. eauto 6.
Qed.

Lemma set_or_fallback_get p sec opt paths k ksrc src q : set_or_fallback p sec opt paths k ksrc src = Ok q ->
  (forall o, o <> opt -> ini_get q sec o = ini_get p sec o) /\
  (forall s, getf paths k = PStr s -> ini_get q sec opt = Ok s) /\
  (getf paths k = PNone -> src = true -> forall s, getf paths ksrc = PStr s -> ini_get q sec opt = Ok s).
Proof.
  intros H. destruct (set_or_fallback_spec _ _ _ _ _ _ _ _ H) as [[-> Ha]|(s & E & Hs)].
  - split; [reflexivity|]. split; [congruence|]. intros _ Hsrc s Hb. unfold set_or_fallback in H. rewrite Ha, Hsrc, Hb in H.
    exact (ini_set_get_same _ _ _ _ _ H).
  - split; [intros o Ho; apply (ini_set_get_other _ _ _ _ _ _ _ E); right; exact Ho|].
    pose proof (ini_set_get_same _ _ _ _ _ E) as G. split.
    + intros s' Ha. destruct Hs as [Hs|[Hs _]]; rewrite Hs in Ha; [injection Ha as <-; exact G|discriminate].
    + intros Ha _ s' Hb. destruct Hs as [Hs|(_ & _ & Hs)]; [congruence|]. rewrite Hs in Hb. injection Hb as <-. exact G.
Qed.
