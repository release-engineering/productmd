(* Insertion sort by a string key.  The model's sorts are Fixpoints of their own; each is identified with an instance of
   [sort_by] or [sortl_by] by a lemma `*_eq` where it is used (all but the de-duplicating [sort_set]).
   [strict = false]: an element goes in front of the keys equal to its own (str_leb; [sort_by], a fold_right, is then Python's
   stable sort); [strict = true]: behind them (str_ltb; stable in the fold_left form [sortl_by]). *)
From PM Require Import Base.Str Proofs.StrLemmas.
From Coq Require Import Permutation Sorted.

Section KeyedSort.
  Context {A : Type} (key : A -> str) (strict : bool).

  Definition before (a b : str) : bool := if strict then str_ltb a b else str_leb a b.

  Fixpoint insert_by (x : A) (l : list A) : list A :=
    match l with
    | [] => [x]
    | y :: l' => if before (key x) (key y) then x :: l else y :: insert_by x l'
    end.

  Definition sort_by (l : list A) : list A := fold_right insert_by [] l.
  Definition sortl_by (l : list A) : list A := fold_left (fun acc x => insert_by x acc) l [].

  (* non-decreasing keys; in this form it unfolds to what the users' statements say *)
  Definition key_le (x y : A) : Prop := str_ltb (key y) (key x) = false.

  Lemma before_le a b : before a b = true -> str_ltb b a = false.
  Proof. unfold before. destruct strict; [apply str_ltb_asym|apply negb_true_iff]. Qed.

  Lemma not_before_ge a b : before a b = false -> str_ltb a b = false.
  Proof. unfold before. destruct strict; intros H; [exact H|]. apply negb_false_iff in H. exact (str_ltb_asym _ _ H). Qed.

  Lemma sortl_by_rev l : sortl_by l = sort_by (rev l).
  Proof. symmetry. apply fold_left_rev_right. Qed.

  Lemma insert_by_perm x l : Permutation (insert_by x l) (x :: l).
  Proof.
    induction l as [|y l IH]; cbn [insert_by]; [reflexivity|].
    destruct (before (key x) (key y)); [reflexivity|]. rewrite IH. apply perm_swap.
  Qed.

  Lemma sort_by_is_perm l : Permutation (sort_by l) l.
  Proof. induction l as [|x l IH]; cbn [sort_by fold_right]; [reflexivity|]. rewrite insert_by_perm. constructor. exact IH. Qed.

  Lemma sortl_by_is_perm l : Permutation (sortl_by l) l.
  Proof. rewrite sortl_by_rev, sort_by_is_perm. symmetry. apply Permutation_rev. Qed.

  Lemma sort_by_In l y : In y (sort_by l) <-> In y l.
  Proof. split; apply Permutation_in; [|symmetry]; apply sort_by_is_perm. Qed.

  Lemma sortl_by_In l y : In y (sortl_by l) <-> In y l.
  Proof. split; apply Permutation_in; [|symmetry]; apply sortl_by_is_perm. Qed.

  Lemma sortl_by_nonempty x l : sortl_by (x :: l) <> [].
  Proof. intros E. apply (Permutation_nil_cons (l := l) (x := x)). rewrite <- E. apply sortl_by_is_perm. Qed.

  Lemma insert_by_sorted x l : StronglySorted key_le l -> StronglySorted key_le (insert_by x l).
  Proof.
    induction 1 as [|y l Hl IH Hy]; cbn [insert_by]; [repeat constructor|].
    destruct (before (key x) (key y)) eqn:E.
    - apply before_le in E. constructor; [constructor; assumption|]. constructor; [exact E|].
      revert Hy. apply Forall_impl. intros z. apply str_nlt_trans. exact E.
    - constructor; [exact IH|]. apply (Permutation_Forall (Permutation_sym (insert_by_perm x l))).
      constructor; [exact (not_before_ge _ _ E)|exact Hy].
  Qed.

  Lemma sort_by_sorted l : StronglySorted key_le (sort_by l).
  Proof. induction l as [|x l IH]; [constructor|apply insert_by_sorted; exact IH]. Qed.

  Lemma sortl_by_sorted l : StronglySorted key_le (sortl_by l).
  Proof. rewrite sortl_by_rev. apply sort_by_sorted. Qed.

  (* with distinct keys a list has one sorted arrangement only: the heads of two are each below the other *)
  Lemma sorted_perm_unique l : forall l',
    StronglySorted key_le l -> StronglySorted key_le l' -> Permutation l l' -> NoDup (map key l) -> l = l'.
  Proof.
    induction l as [|x l IH]; intros l' Hs Hs' HP Hnd; [apply Permutation_nil in HP; auto|].
    destruct l' as [|x' l']; [apply Permutation_sym, Permutation_nil in HP; discriminate|].
    apply StronglySorted_inv in Hs, Hs'. destruct Hs as [Hs Hx], Hs' as [Hs' Hx'].
    inversion Hnd as [|? ? Hk Hnd']; subst.
    assert (x = x').
    { destruct (Permutation_in x' (Permutation_sym HP) (or_introl eq_refl)) as [E|Hin]; [exact E|].
      destruct (Permutation_in x HP (or_introl eq_refl)) as [E|Hin']; [auto|].
      exfalso. apply Hk. rewrite Forall_forall in Hx, Hx'.
      rewrite (str_nlt_antisym _ _ (Hx _ Hin) (Hx' _ Hin')). apply in_map. exact Hin. }
    subst x'. f_equal. apply IH; auto. exact (Permutation_cons_inv HP).
  Qed.

  Theorem sort_by_perm_invariant l l' : Permutation l l' -> NoDup (map key l) -> sort_by l = sort_by l'.
  Proof.
    intros HP Hnd. apply sorted_perm_unique; try apply sort_by_sorted.
    - rewrite !sort_by_is_perm. exact HP.
    - apply (Permutation_NoDup (Permutation_map key (Permutation_sym (sort_by_is_perm l))) Hnd).
  Qed.

  Theorem sortl_by_perm_invariant l l' : Permutation l l' -> NoDup (map key l) -> sortl_by l = sortl_by l'.
  Proof.
    intros HP Hnd. rewrite !sortl_by_rev. apply sort_by_perm_invariant.
    - rewrite <- !Permutation_rev. exact HP.
    - apply (Permutation_NoDup (Permutation_map key (Permutation_rev l)) Hnd).
  Qed.
End KeyedSort.

Section Stable.
  Context {A : Type} (key : A -> str).

  Lemma sort_by_sorted_id l : StronglySorted (key_le key) l -> sort_by key false l = l.
  Proof.
    induction 1 as [|x l Hl IH Hx]; [reflexivity|]. cbn [sort_by fold_right]. fold (sort_by key false l). rewrite IH.
    destruct Hx as [|y l' Hy _]; [reflexivity|]. cbn [insert_by]. unfold before, str_leb. rewrite Hy. reflexivity.
  Qed.

  Lemma insert_by_last x l : Forall (fun y => key_le key y x) l -> insert_by key true x l = l ++ [x].
  Proof. induction 1 as [|y l Hy _ IH]; cbn [insert_by app before]; [reflexivity|]. rewrite Hy, IH. reflexivity. Qed.

  Lemma sortl_by_sorted_id l : StronglySorted (key_le key) l -> sortl_by key true l = l.
  Proof.
    intros H. unfold sortl_by.
    (* the accumulator stays below everything still to come *)
    enough (G : forall acc, Forall (fun a => Forall (key_le key a) l) acc ->
                fold_left (fun acc x => insert_by key true x acc) l acc = acc ++ l) by exact (G [] (Forall_nil _)).
    induction H as [|x l Hl IH Hx]; intros acc Ha; cbn [fold_left]; [symmetry; apply app_nil_r|].
    rewrite insert_by_last, IH, <- app_assoc; [reflexivity| |].
    - apply Forall_app. split; [|constructor; [exact Hx|constructor]].
      revert Ha. apply Forall_impl. intros a. apply Forall_inv_tail.
    - revert Ha. apply Forall_impl. intros a. apply Forall_inv.
  Qed.
End Stable.

Section Map.
  Context {A B : Type} (keyA : A -> str) (keyB : B -> str) (strict : bool) (g : A -> B).
  Hypothesis Hg : forall x, keyB (g x) = keyA x.

  Lemma map_insert_by x l : map g (insert_by keyA strict x l) = insert_by keyB strict (g x) (map g l).
  Proof.
    induction l as [|y l IH]; [reflexivity|]. cbn [insert_by map]. rewrite !Hg.
    destruct (before strict (keyA x) (keyA y)); [reflexivity|]. cbn [map]. rewrite IH. reflexivity.
  Qed.

  Lemma map_sort_by l : map g (sort_by keyA strict l) = sort_by keyB strict (map g l).
  Proof. induction l as [|x l IH]; [reflexivity|]. cbn [sort_by fold_right map]. rewrite map_insert_by. f_equal. exact IH. Qed.

  Lemma map_sortl_by l : map g (sortl_by keyA strict l) = sortl_by keyB strict (map g l).
  Proof. rewrite !sortl_by_rev, map_sort_by, map_rev. reflexivity. Qed.
End Map.
