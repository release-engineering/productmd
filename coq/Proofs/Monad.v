(* the result monad of Base/PyVal.v; a Python loop [for x in l: s = f(s, x)] that may raise is
   [fold_left (fun acc x => do s <- acc; f s x) l (Ok s)] *)
From PM Require Import Base.PyVal.

Lemma bind_ok {A B} (r : result A) (f : A -> result B) y : bind r f = Ok y -> exists x, r = Ok x /\ f x = Ok y.
Proof. destruct r as [x|e]; cbn; [eauto|discriminate]. Qed.

Lemma bind_ok_intro {A B} (r : result A) (f : A -> result B) x y : r = Ok x -> f x = Ok y -> bind r f = Ok y.
Proof. intros -> H. exact H. Qed.

Lemma bind_err {A B} (r : result A) (f : A -> result B) e :
  bind r f = Err e -> r = Err e \/ exists x, r = Ok x /\ f x = Err e.
Proof. destruct r as [x|e']; cbn; [eauto|intros H; injection H as ->; auto]. Qed.

(* [bind_ok] as an eliminator, which [inv_bind] steps with: the term of a step then mentions the rest of a long program
   in the motive only, not once per component of a destructed existential *)
Lemma bind_inv {A B} (r : result A) (f : A -> result B) y (Q : Prop) :
  (forall x, r = Ok x -> f x = Ok y -> Q) -> bind r f = Ok y -> Q.
Proof. intros H E. destruct r as [x|e]; [exact (H x eq_refl E)|discriminate E]. Qed.

Lemma bind_elim {A B} (r : result A) (f : A -> result B) y (Q : Prop) : (forall x, f x = Ok y -> Q) -> bind r f = Ok y -> Q.
Proof. intros H. apply bind_inv. intros x _. apply H. Qed.

Lemma bind_ret {A} (r : result A) : bind r Ok = r.
Proof. destruct r; reflexivity. Qed.

Lemma bind_ext {A B} (r : result A) (f g : A -> result B) : (forall a, f a = g a) -> bind r f = bind r g.
Proof. intros H. destruct r; [apply H|reflexivity]. Qed.

(* re-brackets a chain of binds from its head, the continuation given pointwise; applied, so nothing is searched *)
Lemma bind_ext_assoc {A B C} (r : result A) (f : A -> result B) (g : B -> result C) h :
  (forall a, h a = bind (f a) g) -> bind r h = bind (bind r f) g.
Proof. intros H. destruct r; [apply H|reflexivity]. Qed.

(* [injection] is slow when the two sides are long field lists *)
Lemma Ok_inj {A} (a b : A) : Ok a = Ok b -> a = b.
Proof. intros H. injection H. auto. Qed.

Lemma unit_ok (r : result unit) u : r = Ok u -> r = Ok tt.
Proof. destruct u. auto. Qed.

Lemma guard_ok b e : guard b e = Ok tt <-> b = true.
Proof. destruct b; cbn; split; congruence. Qed.

Lemma guard_ok' b e u : guard b e = Ok u -> b = true.
Proof. destruct b; cbn; congruence. Qed.

Lemma guard_err b e e' : guard b e = Err e' -> e' = e.
Proof. destruct b; cbn; congruence. Qed.

Lemma check_err {A} b e0 (k : result A) e : (check guard b e0; k) = Err e -> e = e0 \/ k = Err e.
Proof. destruct b; cbn [guard bind]; [auto|intros H; injection H; auto]. Qed.

(* [inv_bind H as x G]: from [H : (do x <- r; k) = Ok y] to [G : r = Ok x] and [H : k = Ok y];
   [inv_guard H as G]: the same for [check guard b e; k], leaving [G : b = true]. *)
Tactic Notation "inv_bind" hyp(H) "as" simple_intropattern(x) ident(G) :=
  revert H; refine (bind_inv _ _ _ _ _); intros x G H.
Tactic Notation "inv_guard" hyp(H) "as" ident(G) :=
  revert H; refine (bind_inv _ _ _ _ _); intros ? G H; apply guard_ok' in G.

Lemma checked_ok {A} (r : A -> result unit) x y : (check r x; Ok x) = Ok y -> r y = Ok tt.
Proof. intros H. inv_bind H as u E. apply Ok_inj in H. subst y. exact (unit_ok _ _ E). Qed.

Lemma iterM_all {A} (f : A -> result unit) l : iterM f l = Ok tt -> forall x, In x l -> f x = Ok tt.
Proof.
  induction l as [|y l IH]; cbn [iterM]; intros H x Hin; [destruct Hin|].
  inv_bind H as u E. destruct Hin as [<-|Hin]; [exact (unit_ok _ _ E)|exact (IH H x Hin)].
Qed.

Lemma mapM_spec {A B} (f : A -> result B) (P : A -> Prop) (g : A -> B) :
  (forall x y, f x = Ok y <-> P x /\ y = g x) ->
  forall l ys, mapM f l = Ok ys <-> (forall x, In x l -> P x) /\ ys = map g l.
Proof.
  intros Hf. induction l as [|x l IH]; intros ys; cbn [mapM map].
  - split; [intros H; injection H as <-; split; [intros x []|reflexivity]|intros [_ ->]; reflexivity].
  - split.
    + intros H. inv_bind H as y Ey. inv_bind H as ys' El. injection H as <-.
      apply Hf in Ey. apply IH in El. destruct Ey as [Hx ->], El as [Hl ->].
      split; [intros x' [<-|Hin]; auto|reflexivity].
    + intros [HP ->]. rewrite (proj2 (Hf x (g x))) by (split; [apply HP; left|]; reflexivity). cbn [bind].
      rewrite (proj2 (IH (map g l))) by (split; [intros x' Hin; apply HP; right; exact Hin|reflexivity]). reflexivity.
Qed.

Lemma mapM_Forall2 {A B} (f : A -> result B) l : forall ys, mapM f l = Ok ys <-> Forall2 (fun x y => f x = Ok y) l ys.
Proof.
  induction l as [|x l IH]; intros ys; cbn [mapM].
  - split; [intros H; injection H as <-; constructor|intros H; inversion H; reflexivity].
  - split.
    + intros H. inv_bind H as y E. inv_bind H as ys' E'. injection H as <-. constructor; [exact E|apply IH; exact E'].
    + intros H. inversion H as [|? y ? ys' E E']; subst. apply IH in E'. rewrite E, E'. reflexivity.
Qed.

Lemma fold_bind_err {A S} (f : S -> A -> result S) (l : list A) e :
  fold_left (fun acc x => do s <- acc; f s x) l (Err e) = Err e.
Proof. induction l as [|y l IHl]; cbn [fold_left bind]; [reflexivity|exact IHl]. Qed.

Lemma fold_mapM {A B S} (f : A -> result B) (g : S -> B -> S) l : forall s,
  fold_left (fun acc x => do s <- acc; do y <- f x; Ok (g s y)) l (Ok s) = do ys <- mapM f l; Ok (fold_left g ys s).
Proof.
  induction l as [|x l IH]; intros s; cbn [mapM fold_left bind]; [reflexivity|].
  destruct (f x) as [y|e]; cbn [bind]; [|apply fold_bind_err]. rewrite IH. destruct (mapM f l); reflexivity.
Qed.

Lemma fold_bind_cons {A S} (f : S -> A -> result S) x l s s' :
  fold_left (fun acc x => do s <- acc; f s x) (x :: l) (Ok s) = Ok s' ->
  exists s1, f s x = Ok s1 /\ fold_left (fun acc x => do s <- acc; f s x) l (Ok s1) = Ok s'.
Proof. cbn [fold_left bind]. destruct (f s x) as [s1|e]; [eauto|rewrite fold_bind_err; discriminate]. Qed.

Lemma fold_bind_inv {A S} (P : S -> Prop) (f : S -> A -> result S) (l : list A) :
  (forall s x s', P s -> f s x = Ok s' -> P s') ->
  forall s s', P s -> fold_left (fun acc x => do s <- acc; f s x) l (Ok s) = Ok s' -> P s'.
Proof.
  intros Hf. induction l as [|x l IH]; intros s s' Hs H; [injection H as <-; exact Hs|].
  apply fold_bind_cons in H. destruct H as (s1 & E & H). exact (IH s1 s' (Hf _ _ _ Hs E) H).
Qed.

Lemma fold_bind_reach {A S} (P : S -> Prop) (f : S -> A -> result S) l x0 :
  In x0 l -> (forall s x s', P s -> f s x = Ok s' -> P s') -> (forall s s', f s x0 = Ok s' -> P s') ->
  forall s s', fold_left (fun acc x => do s <- acc; f s x) l (Ok s) = Ok s' -> P s'.
Proof.
  intros Hin Hkeep Hest. induction l as [|x l IH]; [destruct Hin|]. intros s s' H.
  apply fold_bind_cons in H. destruct H as (s1 & E & H). destruct Hin as [->|Hin]; [|exact (IH Hin s1 s' H)].
  exact (fold_bind_inv P f l Hkeep s1 s' (Hest s s1 E) H).
Qed.

Lemma fold_bind_sim {X D S T} (I : S -> Prop) (abs : S -> T) (cstep : S -> D -> result S) (astep : T -> X -> T)
      (enc : X -> D) (ok : X -> Prop) :
  (forall s x, I s -> ok x -> exists s', cstep s (enc x) = Ok s' /\ I s' /\ abs s' = astep (abs s) x) ->
  forall xs s, I s -> (forall x, In x xs -> ok x) ->
  exists s', fold_left (fun acc d => do s <- acc; cstep s d) (map enc xs) (Ok s) = Ok s' /\ I s' /\ abs s' = fold_left astep xs (abs s).
Proof.
  intros Hstep. induction xs as [|x xs IH]; intros s Hs Hok; [exists s; auto|]. cbn [map fold_left bind].
  destruct (Hstep s x Hs (Hok x (or_introl eq_refl))) as (s1 & E & Hs1 & Ha). rewrite E, <- Ha.
  apply IH; [exact Hs1|intros y Hy; apply Hok; right; exact Hy].
Qed.
