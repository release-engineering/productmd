(* C06: what the assertion vocabulary checks, as a flat table of guarded rules, and its exact relation to validate() *)
From PM Require Import Base.PyVal Base.Obj Proofs.Monad.

Inductive atom :=
| AType (f : str) (tags : list pytag)
| AValue (f : str) (tbl : list pyval)
| ANotBlank (f : str)
| ARe (f : str) (rs : list re)
| AFalse                       (* an explicit raise *)
| ATrue.                       (* the guard itself must be evaluable *)

Definition rule := (list vcond * atom)%type.

Fixpoint flatten (gs : list vcond) (e : vexpr) : list rule :=
  match e with
  | AssertType f tags => [(gs, AType f tags)]
  | AssertValue f tbl => [(gs, AValue f tbl)]
  | AssertNotBlank f => [(gs, ANotBlank f)]
  | AssertMatchesRe f rs => [(gs, ARe f rs)]
  | VIf c body => (gs ++ [c], ATrue) :: (fix go (l : list vexpr) : list rule :=
                                            match l with [] => [] | x :: l' => flatten (gs ++ [c]) x ++ go l' end) body
  | VRaise _ => [(gs, AFalse)]
  | VPass => []
  end.

Definition atom_holds (o : obj) (a : atom) : bool :=
  match a with
  | AType f tags => existsb (has_tag (getf o f)) tags
  | AValue f tbl => py_in (getf o f) tbl
  | ANotBlank f => truthy (getf o f)
  | ARe f rs => match getf o f with PStr s => existsb (fun r => re_matches r s) rs | _ => false end
  | AFalse => false
  | ATrue => true
  end.

Fixpoint guards_eval (o : obj) (gs : list vcond) : result bool :=
  match gs with
  | [] => Ok true
  | c :: gs' => do b <- eval_cond o c; if b then guards_eval o gs' else Ok false
  end.

Definition rule_holds (o : obj) (r : rule) : Prop :=
  match guards_eval o (fst r) with
  | Ok true => atom_holds o (snd r) = true
  | Ok false => True
  | Err _ => False
  end.

Lemma guards_eval_app o gs gs' : guards_eval o gs = Ok true -> guards_eval o (gs ++ gs') = guards_eval o gs'.
Proof.
  induction gs as [|c gs IH]; cbn [app guards_eval]; [reflexivity|].
  destruct (eval_cond o c) as [[]|e]; cbn [bind]; try discriminate. exact IH.
Qed.

Lemma guards_eval_false_prefix o gs gs' : guards_eval o gs = Ok false -> guards_eval o (gs ++ gs') = Ok false.
Proof.
  induction gs as [|c gs IH]; cbn [app guards_eval]; [discriminate|].
  destruct (eval_cond o c) as [[]|e]; cbn [bind]; try discriminate; [exact IH|reflexivity].
Qed.

Lemma guards_eval_snoc o gs c : guards_eval o gs = Ok true -> guards_eval o (gs ++ [c]) = do b <- eval_cond o c; Ok b.
Proof. intros Hg. rewrite (guards_eval_app o gs [c] Hg). cbn [guards_eval]. destruct (eval_cond o c) as [[]|]; reflexivity. Qed.

Lemma single_rule o gs a : guards_eval o gs = Ok true -> (Forall (rule_holds o) [(gs, a)] <-> atom_holds o a = true).
Proof.
  intros Hg. rewrite Forall_cons_iff. unfold rule_holds. cbn [fst snd]. rewrite Hg.
  split; [tauto|]. intros H. split; [exact H|constructor].
Qed.

Lemma flatten_dead o : forall e gs, guards_eval o gs = Ok false -> Forall (rule_holds o) (flatten gs e).
Proof.
  fix IH 1. intros e gs Hg.
  assert (Hr : forall a, rule_holds o (gs, a)) by (intros a; unfold rule_holds; cbn [fst]; rewrite Hg; exact I).
  destruct e as [f tags|f tbl|f|f rs|c body|ex|]; cbn [flatten]; repeat constructor; try apply Hr.
  - unfold rule_holds. cbn [fst]. rewrite (guards_eval_false_prefix o gs [c] Hg). exact I.
  - induction body as [|x body IHb]; [constructor|]. apply Forall_app. split; [|exact IHb].
    apply IH, guards_eval_false_prefix, Hg.
Qed.

Theorem run_vexpr_iff_rules o : forall e gs,
  guards_eval o gs = Ok true -> (run_vexpr o e = Ok tt <-> Forall (rule_holds o) (flatten gs e)).
Proof.
  fix IH 1. intros e gs Hg. destruct e as [f tags|f tbl|f|f rs|c body|ex|]; cbn [run_vexpr flatten];
    rewrite ?(single_rule o gs _ Hg); cbn [atom_holds].
  1-3: apply guard_ok.
  - destruct (getf o f); try (destruct rs; split; discriminate). apply guard_ok.
  - (* VIf: the rule (gs ++ [c], ATrue) says that the guard can be evaluated *)
    rewrite Forall_cons_iff. unfold rule_holds at 1. cbn [fst snd atom_holds].
    pose proof (guards_eval_snoc o gs c Hg) as Hgc. rewrite Hgc.
    destruct (eval_cond o c) as [[]|ec]; cbn [bind] in *.
    +
      match goal with |- ?run = Ok tt <-> _ /\ ?rules => enough (Hb : run = Ok tt <-> rules) by tauto end.
      induction body as [|x body IHb]; [split; [constructor|reflexivity]|].
      rewrite Forall_app, <- IHb, <- (IH x _ Hgc). destruct (run_vexpr o x) as [[]|ex]; cbn [bind]; [tauto|].
      split; [discriminate|intros [H _]; discriminate].
    +
      split; [|reflexivity]. intros _. split; [exact I|].
      induction body as [|x body IHb]; [constructor|]. apply Forall_app. split; [apply flatten_dead, Hgc|exact IHb].
    + split; [discriminate|intros [[] _]].
  - split; discriminate.
  - split; [constructor|reflexivity].
Qed.

Definition flatten_body (b : list vexpr) : list rule := flat_map (flatten []) b.

Theorem run_vexprs_iff_rules o b : run_vexprs o b = Ok tt <-> Forall (rule_holds o) (flatten_body b).
Proof.
  unfold run_vexprs, flatten_body. induction b as [|e b IH]; cbn [iterM flat_map]; [split; [constructor|reflexivity]|].
  rewrite Forall_app, <- IH, <- (run_vexpr_iff_rules o e [] eq_refl).
  destruct (run_vexpr o e) as [[]|ex]; cbn [bind]; split; try tauto; try discriminate; try (intros [H _]; discriminate).
Qed.

Definition rules_of (ms : list (str * vmethod)) : list rule :=
  flat_map (fun m => match snd m with VBody b => flatten_body b | VCustom _ => [] end) ms.

Definition customs_of (ms : list (str * vmethod)) : list str :=
  flat_map (fun m => match snd m with VBody _ => [] | VCustom q => [q] end) ms.

(* VBody is a translated validator, VCustom a hand-modelled one, looked up in ct *)
Theorem run_validators_iff ct ms o :
  run_validators ct ms o = Ok tt <->
  Forall (rule_holds o) (rules_of ms) /\
  Forall (fun q => match ct q with Some f => f o = Ok tt | None => False end) (customs_of ms).
Proof.
  unfold run_validators, rules_of, customs_of. induction ms as [|[name m] ms IH]; cbn [iterM flat_map snd].
  - split; [intros _; split; constructor|reflexivity].
  - rewrite !Forall_app. destruct m as [b|q]; cbn [run_method].
    + rewrite <- (run_vexprs_iff_rules o b). destruct (run_vexprs o b) as [[]|e]; cbn [bind]; [rewrite IH; intuition constructor|].
      split; [discriminate|]. intros [[H _] _]. discriminate.
    + rewrite Forall_cons_iff. destruct (ct q) as [f|]; [destruct (f o) as [[]|e]|]; cbn [bind].
      * rewrite IH. intuition constructor.
      * split; [discriminate|]. intros [_ [[H _] _]]. discriminate.
      * split; [discriminate|]. intros [_ [[[] _] _]].
Qed.
