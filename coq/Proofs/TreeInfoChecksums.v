(* C04 / C16: the [checksums] section - every path is read back with the algorithm and value typed from exactly the text
   written for it, and no other path appears *)
From PM Require Import Base.PyVal Base.Obj Base.Ini Model.Common Model.TreeInfo Proofs.Monad Proofs.ListLemmas Proofs.KeyedSort
  Proofs.AssocLemmas Proofs.IniLemmas Proofs.TreeInfoWriter Proofs.TreeInfoReadBack.
From Coq Require Import Permutation.

Definition ck_text (c : str * (pyval * pyval)) : str := fmt_s (fst (snd c)) ++ c_colon :: fmt_s (snd (snd c)).

Lemma checksums_written x mv t : ser_ti x mv = Ok t -> NoDup (map fst (ti_checksums x)) ->
  assoc (F"checksums") t =
    match ti_checksums x with [] => None | cs => Some (map (fun c => (fst c, ck_text c)) cs) end.
Proof.
  intros Hw Hnd. destruct (ser_ti_section x mv t (F"checksums") _ Hw eq_refl) as (p & p' & G & A & E).
  rewrite E. inv_bind G as u Gu. destruct (ti_checksums x) as [|c cs]; [injection G as <-; exact A|].
  set (l := c :: cs) in *. inv_bind G as q Gq.
  assert (Gs : sets q (F"checksums") (map pstr_snd (map (fun c => (fst c, ck_text c)) l)) = Ok p')
    by (unfold sets; rewrite map_map, fold_left_map; exact G).
  destruct (section_written _ _ _ _ _ Gq Gs) as [_ ->]; [rewrite map_map; exact Hnd|].
  exact (assoc_last _ _ _ A).
Qed.

(* the body of r_checksums' loop *)
Definition ck_step (acc : result (list (str * (pyval * pyval)))) (kv : str * str) :=
  do cs <- acc; do tc <- typed_checksum (snd kv); Ok (assoc_set (fst kv) tc cs).

Lemma ck_fold_spec l : forall cs0 res,
  fold_left ck_step l (Ok cs0) = Ok res -> NoDup (map fst l) ->
  (forall k v, In (k, v) l -> exists tc, typed_checksum v = Ok tc /\ assoc k res = Some tc) /\
  (forall k, ~ In k (map fst l) -> assoc k res = assoc k cs0).
Proof.
  induction l as [|[k0 v0] l IH]; intros cs0 res H Hn.
  - injection H as <-. split; [intros k v []|reflexivity].
  - cbn [fold_left ck_step bind fst snd] in H. destruct (typed_checksum v0) as [tc0|e] eqn:E0; cbn [bind] in H.
    2:{ unfold ck_step in H. rewrite fold_bind_err in H. discriminate. }
    cbn [map fst] in Hn. inversion Hn as [|? ? Hx Hr]; subst. destruct (IH _ _ H Hr) as [IH1 IH2]. split.
    + intros k v [Ekv|Hin]; [|exact (IH1 k v Hin)]. injection Ekv as <- <-. exists tc0. split; [exact E0|].
      rewrite (IH2 _ Hx). apply assoc_set_same.
    + intros k Hk. cbn [map fst In] in Hk. rewrite IH2 by tauto. apply assoc_set_other. tauto.
Qed.

Theorem checksums_read_back x mv t x' :
  ser_ti x mv = Ok t -> deser_ti t = Ok x' -> NoDup (map fst (ti_checksums x)) ->
  (forall c, In c (ti_checksums x) -> exists tc, typed_checksum (ck_text c) = Ok tc /\ assoc (fst c) (ti_checksums x') = Some tc) /\
  (forall p, ~ In p (map fst (ti_checksums x)) -> assoc p (ti_checksums x') = None).
Proof.
  intros Hw Hr Hnd. pose proof (deser_ti_checksums t x' Hr) as G.
  unfold r_checksums in G. inv_bind G as cks Gk. inv_bind G as u Gu. injection G as <-.
  rewrite (checksums_written x mv t Hw Hnd) in Gk. set (xs := map (fun c => (fst c, ck_text c)) (ti_checksums x)).
  (* an absent section is read as [], which is also the fold over no options *)
  assert (Gf : fold_left ck_step (sort_opts xs) (Ok []) = Ok cks) by (unfold xs; destruct (ti_checksums x); exact Gk).
  rewrite sort_opts_eq in Gf.
  pose proof (Permutation_map fst (sort_by_is_perm fst false xs)) as Hp. unfold xs in Hp at 2. rewrite map_map in Hp. cbn [fst] in Hp.
  destruct (ck_fold_spec _ _ _ Gf) as [F1 F2]; [exact (Permutation_NoDup (Permutation_sym Hp) Hnd)|]. split.
  - intros c Hc. apply (F1 (fst c) (ck_text c)). apply (sort_by_In fst false).
    exact (in_map (fun c => (fst c, ck_text c)) _ _ Hc).
  - intros k Hk. rewrite F2; [reflexivity|]. intros Hin. exact (Hk (Permutation_in _ Hp Hin)).
Qed.
