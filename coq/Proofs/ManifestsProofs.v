(* C12: Rpms.add, Modules.add and ExtraFiles.add file one entry where their arguments say and touch nothing else; when they
   refuse; dump_for_tree's base path *)
From PM Require Import Base.PyVal Base.Regex Model.Nvra Model.Manifests Proofs.Monad Proofs.AssocLemmas Gen.Tables.

Lemma check_nevra_err s e : check_nevra s = Err e -> e = ValueError.
Proof.
  unfold check_nevra. destruct (memc c_colon s); [|congruence].
  unfold parse_nvra. destruct (match_nvra _); cbn; congruence.
Qed.

(* `if srpm_nevra:` - an empty string counts as no srpm given *)
Definition srpm_key (nevra_c : str) (srpm : option str) : result str :=
  match srpm with
  | Some (x :: xs) => do sp <- check_nevra (x :: xs); Ok (fst sp)
  | _ => Ok nevra_c
  end.

Definition rpms_pre (arch nevra path category : str) (srpm : option str) : bool :=
  mem_str arch RPM_ARCHES && negb (is_src_arch arch) && mem_str category SUPPORTED_CATEGORIES &&
  negb (startswith path [c_slash]) &&
  match check_nevra nevra with
  | Err _ => false
  | Ok (nc, nd) =>
      negb (str_eqb category s_source && match srpm with Some _ => true | None => false end) &&
      negb (negb (str_eqb category s_source) && match srpm with Some _ => false | None => true end) &&
      Bool.eqb (str_eqb category s_source) (is_src_arch (n_arch nd)) &&
      match srpm_key nc srpm with Ok _ => true | Err _ => false end
  end.

(* Rpms.add, Modules.add and ExtraFiles.add each change one cell of a map variant -> arch -> cell *)
Lemma sub2_upd {X} (m : list (str * list (str * list X))) v a (g : option (list X) -> list X) v' a' :
  sub (sub (upd v (fun o => upd a g (dflt [] o)) m) v') a' =
  if str_eqb v v' && str_eqb a a' then g (assoc a (sub m v)) else sub (sub m v') a'.
Proof. rewrite sub_upd. destruct (str_eqb_spec v v') as [<-|_]; [apply sub_upd|reflexivity]. Qed.

Lemma rpms_get_sub m v a s r : rpms_get m v a s r = assoc r (sub (sub (sub m v) a) s).
Proof.
  unfold rpms_get, sub. destruct (assoc v m) as [ma|]; [|reflexivity]. cbn [dflt].
  destruct (assoc a ma) as [ms|]; [|reflexivity]. cbn [dflt]. destruct (assoc s ms); reflexivity.
Qed.

Definition rpms_put (m : rpms_t) (v a s r : str) (e : rpm_entry) : rpms_t :=
  upd v (fun o => upd a (fun o => upd s (fun o => upd r (fun _ => e) (dflt [] o)) (dflt [] o)) (dflt [] o)) m.

Lemma rpms_get_put m v a s r e v' a' s' r' :
  rpms_get (rpms_put m v a s r e) v' a' s' r' =
  if str_eqb v v' && str_eqb a a' && str_eqb s s' && str_eqb r r' then Some e else rpms_get m v' a' s' r'.
Proof.
  unfold rpms_put. rewrite !rpms_get_sub, sub2_upd.
  destruct (str_eqb_spec v v') as [<-|_], (str_eqb_spec a a') as [<-|_]; try reflexivity.
  cbn [andb]. rewrite sub_upd. destruct (str_eqb_spec s s') as [<-|_]; [apply assoc_upd|reflexivity].
Qed.

Lemma rpms_add_shape m v a n p sg c sr m' :
  rpms_add m v a n p sg c sr = Ok m' ->
  exists nc nd sc, check_nevra n = Ok (nc, nd) /\ srpm_key nc sr = Ok sc /\ rpms_pre a n p c sr = true /\
    m' = rpms_put m v a sc nc {| e_sigkey := option_map lower sg; e_path := p; e_category := c |}.
Proof.
  unfold rpms_add. intros H.
  inv_guard H as G. inv_guard H as G0. inv_guard H as G1. inv_guard H as G2.
  inv_bind H as [nc nd] G3.
  inv_guard H as G4. inv_guard H as G5. inv_guard H as G6.
  inv_bind H as sc G7. fold (srpm_key nc sr) in G7. injection H as <-.
  exists nc, nd, sc. split; [exact G3|]. split; [exact G7|]. split; [|reflexivity].
  unfold rpms_pre. rewrite G, G0, G1, G2, G3, G4, G5, G6, G7. reflexivity.
Qed.

Theorem rpms_add_refines m v a n p sg c sr m' :
  rpms_add m v a n p sg c sr = Ok m' ->
  exists nc nd sc,
    check_nevra n = Ok (nc, nd) /\ srpm_key nc sr = Ok sc /\ rpms_pre a n p c sr = true /\
    rpms_get m' v a sc nc = Some {| e_sigkey := option_map lower sg; e_path := p; e_category := c |} /\
    forall v' a' s' r', (v', a', s', r') <> (v, a, sc, nc) -> rpms_get m' v' a' s' r' = rpms_get m v' a' s' r'.
Proof.
  intros H. destruct (rpms_add_shape _ _ _ _ _ _ _ _ _ H) as (nc & nd & sc & Hn & Hs & Hp & ->).
  exists nc, nd, sc. repeat (split; [assumption|]). split.
  - rewrite rpms_get_put, !str_eqb_refl. reflexivity.
  - intros v' a' s' r' Hne. rewrite rpms_get_put.
    destruct (str_eqb_spec v v') as [<-|_]; [|reflexivity]. destruct (str_eqb_spec a a') as [<-|_]; [|reflexivity].
    destruct (str_eqb_spec sc s') as [<-|_]; [|reflexivity]. destruct (str_eqb_spec nc r') as [<-|_]; [congruence|reflexivity].
Qed.

Theorem rpms_add_accepts_iff m v a n p sg c sr :
  (exists m', rpms_add m v a n p sg c sr = Ok m') <-> rpms_pre a n p c sr = true.
Proof.
  split.
  - intros [m' H]. destruct (rpms_add_refines _ _ _ _ _ _ _ _ _ H) as (nc & nd & sc & _ & _ & Hp & _). exact Hp.
  - unfold rpms_pre, rpms_add. destruct (check_nevra n) as [[nc nd]|e]; [|rewrite andb_false_r; discriminate].
    intros H. rewrite !andb_true_iff in H. destruct H as [[[[H1 H2] H3] H4] [[[H5 H6] H7] H8]].
    rewrite H1, H2, H3, H4. cbn [guard bind]. rewrite H5, H6, H7. cbn [guard bind].
    fold (srpm_key nc sr). destruct (srpm_key nc sr) as [sc|e]; [cbn [bind]; eauto|discriminate].
Qed.

Theorem rpms_add_refusal_class m v a n p sg c sr e :
  rpms_add m v a n p sg c sr = Err e -> e = ValueError.
Proof.
  unfold rpms_add. intros H.
  repeat (apply check_err in H; destruct H as [H|H]; [exact H|]).
  apply bind_err in H. destruct H as [H|([nc nd] & _ & H)]; [exact (check_nevra_err _ _ H)|].
  repeat (apply check_err in H; destruct H as [H|H]; [exact H|]).
  apply bind_err in H. destruct H as [H|(? & _ & H)]; [|discriminate].
  destruct sr as [[|ch0 chs]|]; try discriminate.
  apply bind_err in H. destruct H as [H|(? & _ & H)]; [exact (check_nevra_err _ _ H)|discriminate].
Qed.

Definition modules_get (m : modules_t) (v a u : str) : option mod_entry :=
  match assoc v m with
  | None => None
  | Some ma => match assoc a ma with None => None | Some mu => assoc u mu end
  end.

Lemma modules_get_sub m v a u : modules_get m v a u = assoc u (sub (sub m v) a).
Proof. unfold modules_get, sub. destruct (assoc v m) as [ma|]; [|reflexivity]. cbn [dflt]. destruct (assoc a ma); reflexivity. Qed.

Theorem modules_add_refines m v a uid kt mp c rl m' :
  modules_add m v a uid kt mp c rl = Ok m' ->
  exists uc name stream version context rpms,
    check_uid uid = Ok (uc, (name, stream, version, context)) /\ rl = Some rpms /\
    v <> [] /\ kt <> [] /\ mp <> [] /\ startswith mp [c_slash] = false /\
    mem_str a MODULES_ARCHES = true /\ mem_str c MODULES_CATEGORIES = true /\
    (exists e, modules_get m' v a uc = Some e /\
       md_uid e = uc /\ md_name e = name /\ md_stream e = stream /\ md_version e = version /\ md_context e = context /\
       md_koji_tag e = kt /\ assoc c (md_paths e) = Some mp /\
       (forall c', c' <> c -> assoc c' (md_paths e) = match modules_get m v a uc with Some o => assoc c' (md_paths o) | None => None end) /\
       md_rpms e = (match modules_get m v a uc with Some o => md_rpms o | None => [] end) ++ rpms) /\
    forall v' a' u', (v', a', u') <> (v, a, uc) -> modules_get m' v' a' u' = modules_get m v' a' u'.
Proof.
  unfold modules_add. intros H.
  inv_guard H as G. inv_guard H as G0. inv_guard H as G1.
  inv_bind H as [uc [[[name stream] version] context]] G2.
  inv_guard H as G3. inv_guard H as G4. inv_guard H as G5.
  inv_bind H as rpms0 G6. destruct rl as [rpms|]; [|discriminate]. injection G6 as <-. injection H as <-.
  exists uc, name, stream, version, context, rpms.
  split; [exact G2|]. split; [reflexivity|].
  split; [destruct v; discriminate|]. split; [destruct kt; discriminate|].
  split; [destruct mp; discriminate|]. split; [apply negb_true_iff; exact G3|].
  split; [exact G0|]. split; [exact G1|]. split.
  - eexists. split; [rewrite modules_get_sub, sub2_upd, !str_eqb_refl; apply assoc_upd_same|].
    cbn [md_uid md_name md_stream md_version md_context md_koji_tag md_paths md_rpms].
    repeat (split; [reflexivity|]). rewrite modules_get_sub. unfold sub.
    split; [apply assoc_set_same|]. split; [|destruct (assoc uc _); reflexivity].
    intros c' Hc'. rewrite assoc_set_other by congruence. destruct (assoc uc _); reflexivity.
  - intros v' a' u' Hne. rewrite !modules_get_sub, sub2_upd.
    destruct (str_eqb_spec v v') as [<-|_], (str_eqb_spec a a') as [<-|_]; try reflexivity. apply assoc_upd_other. congruence.
Qed.

Lemma check_uid_err s e : check_uid s = Err e -> e = ValueError.
Proof.
  unfold check_uid. destruct (memc c_colon s); [|congruence].
  unfold parse_uid. destruct (re_match _ _); cbn [bind]; [discriminate|congruence].
Qed.

Theorem modules_add_refusal_class m v a uid kt mp c rl e :
  modules_add m v a uid kt mp c rl = Err e -> e = ValueError.
Proof.
  unfold modules_add. intros H.
  repeat (apply check_err in H; destruct H as [H|H]; [exact H|]).
  apply bind_err in H. destruct H as [H|([uc [[[name stream] version] context]] & _ & H)]; [exact (check_uid_err _ _ H)|].
  repeat (apply check_err in H; destruct H as [H|H]; [exact H|]).
  destruct rl; cbn in H; congruence.
Qed.

Definition extra_get (m : extra_t) (v a : str) : list extra_entry :=
  match assoc v m with
  | None => []
  | Some ma => dflt [] (assoc a ma)
  end.

Lemma extra_get_sub m v a : extra_get m v a = sub (sub m v) a.
Proof. unfold extra_get, sub. destruct (assoc v m); reflexivity. Qed.

Theorem extra_add_refines m v a p sz cs m' :
  extra_add m v a p sz cs = Ok m' ->
  exists c, cs = Some c /\ v <> [] /\ p <> [] /\ startswith p [c_slash] = false /\ mem_str a EXTRA_ARCHES = true /\
    extra_get m' v a = extra_get m v a ++ [{| x_file := p; x_size := sz; x_checksums := c |}] /\
    forall v' a', (v', a') <> (v, a) -> extra_get m' v' a' = extra_get m v' a'.
Proof.
  unfold extra_add. intros H.
  inv_guard H as G. inv_guard H as G0. inv_guard H as G1. inv_guard H as G2.
  inv_bind H as c0 G3. destruct cs as [c|]; [|discriminate]. injection G3 as <-. injection H as <-.
  exists c. split; [reflexivity|]. split; [destruct v; discriminate|]. split; [destruct p; discriminate|].
  split; [apply negb_true_iff; exact G2|]. split; [exact G0|]. split.
  - rewrite !extra_get_sub, sub2_upd, !str_eqb_refl. reflexivity.
  - intros v' a' Hne. rewrite !extra_get_sub, sub2_upd.
    destruct (str_eqb_spec v v') as [<-|_], (str_eqb_spec a a') as [<-|_]; try reflexivity. congruence.
Qed.

Lemma strip_right_noslash_end r : (forall r', r <> r' ++ [c_slash]) -> strip_right (fun c => N.eqb c c_slash) r = r.
Proof.
  induction r as [|x r IH]; intros H; [reflexivity|]. cbn [strip_right].
  destruct r as [|y r'].
  - cbn [strip_right]. destruct (N.eqb_spec x c_slash) as [->|_]; [exfalso; apply (H []); reflexivity|reflexivity].
  - rewrite IH; [reflexivity|]. intros r'' E. apply (H (x :: r'')). cbn. rewrite E. reflexivity.
Qed.

(* dump_for_tree strips the base path on a path-component boundary: one that only textually prefixes the stored path strips
   nothing *)
Example relative_to_textual_prefix :
  relative_to (lit "Server/x86_64/os-extra/GPL") (lit "Server/x86_64/os") = lit "Server/x86_64/os-extra/GPL" /\
  relative_to (lit "Server/x86_64/os/GPL") (lit "Server/x86_64/os//") = lit "GPL".
Proof. vm_compute. split; reflexivity. Qed.
