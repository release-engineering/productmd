(* C06/C07: the regenerated header-version and milestone-label patterns accept exactly the documented languages *)
From PM Require Import Base.PyVal Base.Regex Proofs.RegexSem Proofs.LangProofs Gen.Regexes Gen.Tables.
Open Scope nat_scope.

Definition cs_chr (c : chr) : cset := CS false [(c, c)].
Definition digits1 : re := Cat (Cls cs_dig) (Star (Cls cs_dig)).

Definition Digits (s : str) : Prop := exists d ds, s = d :: ds /\ is_digit d = true /\ forallb is_digit ds = true.

Lemma den_digits1 : denotes digits1 Digits.
Proof. eapply den_ext; [apply den_cat; [apply den_cls|apply den_star_cls]; apply digit_cs_spec|]. intros u. apply lcat_char. Qed.

Definition lit_before (s : str) (k : re) : re := fold_right (fun c r => Cat (Cls (cs_chr c)) r) k s.

Lemma den_lit s k L : denotes_eol k L -> denotes_eol (lit_before s k) (fun u => exists t, u = s ++ t /\ L t).
Proof.
  intros Hk. induction s as [|c s IH]; cbn [lit_before fold_right]; intros pos u rest.
  - rewrite (Hk pos u rest). cbn [app]. split; [intros [H E]; eauto|intros [(t & -> & H) E]; auto].
  - rewrite (den_cat_eol _ _ _ _ (den_cls _ _ (cs_single c)) IH pos u rest), lcat_char. setoid_rewrite N.eqb_eq.
    apply and_iff_compat_r. split; [intros (x & ? & -> & -> & t & -> & H); exists t|intros (t & -> & H); exists c, (s ++ t)]; eauto.
Qed.

(* header version:  ^\d+\.\d+$ *)
Definition num_dot_num : re := Cat digits1 (Cat (Cls (cs_chr c_dot)) (Cat digits1 Eol)).
Definition header_version_shape : re := Cat Bol num_dot_num.

Lemma header_version_is_shape : re_header_version = header_version_shape.
Proof. reflexivity. Qed.

Definition DocHeaderVersion (s : str) : Prop := exists a b, s = a ++ c_dot :: b /\ Digits a /\ Digits b.

Lemma den_num_dot_num : denotes_eol num_dot_num (lcat Digits (lcat (lchar (fun x => N.eqb x c_dot)) Digits)).
Proof. apply den_cat_eol; [apply den_digits1|]. apply den_cat_eol; [apply den_cls, cs_single|apply den_end, den_digits1]. Qed.

Lemma num_dot_num_doc u : lcat Digits (lcat (lchar (fun x => N.eqb x c_dot)) Digits) u <-> DocHeaderVersion u.
Proof.
  unfold lcat at 1. setoid_rewrite lcat_char. setoid_rewrite N.eqb_eq. split.
  - intros (a & ? & -> & Ha & x & b & -> & -> & Hb). exists a, b. auto.
  - intros (a & b & -> & Ha & Hb). exists a, (c_dot :: b). eauto 8.
Qed.

Theorem header_version_lang s :
  re_matches re_header_version s = true <-> exists body, (s = body \/ s = body ++ [c_nl]) /\ DocHeaderVersion body.
Proof. rewrite header_version_is_shape. exact (anchored_lang _ _ _ s den_num_dot_num num_dot_num_doc). Qed.

(* milestone labels:  ^<name>-\d+\.\d+$  for every name of the regenerated LABEL_NAMES table *)
Definition label_shape (name : str) : re := Cat Bol (lit_before (name ++ [c_dash]) num_dot_num).

Lemma labels_are_shapes : re_labels = map label_shape LABEL_NAMES.
Proof. reflexivity. Qed.

Definition DocLabel (name s : str) : Prop := exists a b, s = name ++ c_dash :: a ++ c_dot :: b /\ Digits a /\ Digits b.

Lemma label_shape_lang name s :
  re_matches (label_shape name) s = true <-> exists body, (s = body \/ s = body ++ [c_nl]) /\ DocLabel name body.
Proof.
  eapply anchored_lang; [apply den_lit, den_num_dot_num|]. intros u. setoid_rewrite num_dot_num_doc. split.
  - intros (t & -> & a & b & -> & H). exists a, b. rewrite <- app_assoc. auto.
  - intros (a & b & -> & H). exists (a ++ c_dot :: b). rewrite <- app_assoc. split; [reflexivity|]. exists a, b. auto.
Qed.

Theorem label_lang s :
  existsb (fun r => re_matches r s) re_labels = true <->
  exists name body, In name LABEL_NAMES /\ (s = body \/ s = body ++ [c_nl]) /\ DocLabel name body.
Proof.
  rewrite labels_are_shapes, existsb_exists. split.
  - intros (r & Hin & Hm). apply in_map_iff in Hin. destruct Hin as (name & <- & Hn).
    apply label_shape_lang in Hm. destruct Hm as (body & Hs & Hd). exists name, body. auto.
  - intros (name & body & Hn & Hs & Hd). exists (label_shape name). split; [apply in_map; exact Hn|].
    apply label_shape_lang. exists body. auto.
Qed.

Example header_version_examples :
  re_matches re_header_version (lit "1.2") = true /\ re_matches re_header_version (lit "102") = false /\
  re_matches re_header_version (lit "1_2") = false /\ existsb (fun r => re_matches r (lit "RC-1.0")) re_labels = true /\
  existsb (fun r => re_matches r (lit "RC-100")) re_labels = false.
Proof. repeat split; vm_compute; reflexivity. Qed.
