(* C01, C08: the sorts by string key of Model/ComposeInfo.v (sort_keys, sort_set, sort_list): permutation invariance, and
   strictly sorted input is a fixed point *)
From PM Require Import Model.ComposeInfo Model.CiNormalB Proofs.AssocLemmas Proofs.StrLemmas Proofs.KeyedSort.
From Coq Require Import Permutation Sorted.

Fixpoint ssorted (l : list str) : Prop :=
  match l with
  | [] => True
  | x :: l' => Forall (fun y => str_ltb x y = true) l' /\ ssorted l'
  end.

Lemma ssorted_nodup l : ssorted l -> NoDup l.
Proof.
  induction l as [|x l IH]; intros H; [constructor|]. destruct H as [Hx Hl]. constructor; [|exact (IH Hl)].
  intros Hin. rewrite Forall_forall in Hx. pose proof (Hx x Hin) as E. rewrite str_ltb_irrefl in E. discriminate.
Qed.

Lemma ssortedb_ok l : ssortedb l = true -> ssorted l.
Proof.
  induction l as [|x l IH]; cbn [ssortedb ssorted]; [auto|]. intros H. apply andb_true_iff in H. destruct H as [H1 H2].
  split; [|exact (IH H2)]. rewrite forallb_forall in H1. apply Forall_forall. exact H1.
Qed.

Lemma nodupb_eq l : nodupb l = distinct l.
Proof. reflexivity. Qed.

Lemma nodupb_ok l : nodupb l = true -> NoDup l.
Proof. rewrite nodupb_eq. apply distinct_nodup. Qed.

Lemma ssorted_keys {A} (key : A -> str) l : ssorted (map key l) -> StronglySorted (key_le key) l.
Proof.
  induction l as [|x l IH]; cbn [map ssorted]; [constructor|]. intros [Hx Hl]. constructor; [exact (IH Hl)|].
  rewrite Forall_map in Hx. revert Hx. apply Forall_impl. intros y. apply str_ltb_asym.
Qed.

Section keyed.
  Context {A : Type}.
  Implicit Types l : list (str * A).

  Lemma sort_keys_eq l : sort_keys l = sort_by fst false l.
  Proof.
    induction l as [|x l IH]; [reflexivity|]. cbn [sort_keys fold_right]. fold (sort_keys l). rewrite IH.
    change (sort_by fst false (x :: l)) with (insert_by fst false x (sort_by fst false l)). generalize (sort_by fst false l). intros s. induction s as [|y s IHs]; cbn [insert_key insert_by before]; [|rewrite IHs]; reflexivity.
  Qed.

  Lemma sort_keys_is_perm l : Permutation (sort_keys l) l.
  Proof. rewrite sort_keys_eq. apply sort_by_is_perm. Qed.

  Theorem sort_keys_perm l l' : Permutation l l' -> NoDup (map fst l) -> sort_keys l = sort_keys l'.
  Proof. rewrite !sort_keys_eq. apply sort_by_perm_invariant. Qed.

  Lemma sort_keys_of_perm l l' : Permutation l l' -> ssorted (map fst l') -> sort_keys l = l'.
  Proof.
    intros Hp Hs. rewrite sort_keys_eq, <- (sort_by_sorted_id fst l' (ssorted_keys fst l' Hs)).
    apply sort_by_perm_invariant; [exact Hp|].
    apply (Permutation_NoDup (Permutation_map fst (Permutation_sym Hp))), ssorted_nodup, Hs.
  Qed.
End keyed.

Lemma sort_keys_map {A B} (g : A -> B) (l : list (str * A)) :
  sort_keys (map (fun kc => (fst kc, g (snd kc))) l) = map (fun kc => (fst kc, g (snd kc))) (sort_keys l).
Proof. rewrite !sort_keys_eq. symmetry. apply (map_sort_by fst fst). reflexivity. Qed.

Lemma sort_set_sorted (l : list str) : ssorted l -> sort_set (map PStr l) = map PStr l.
Proof.
  induction l as [|x l IH]; [reflexivity|]. intros [Hx Hl]. unfold sort_set. cbn [map fold_right]. fold (sort_set (map PStr l)).
  rewrite (IH Hl). destruct Hx as [|y l' E _]; [reflexivity|]. cbn [map insert_pv]. rewrite E.
  destruct (str_eqb_spec x y) as [->|_]; [|reflexivity]. rewrite str_ltb_irrefl in E. discriminate.
Qed.

Lemma sort_list_eq l : sort_list l = sort_by (fun v => match v with PStr s => s | _ => [] end) false l.
Proof. reflexivity. Qed.

Lemma sort_list_sorted (l : list str) : ssorted l -> sort_list (map PStr l) = map PStr l.
Proof. intros H. rewrite sort_list_eq. apply sort_by_sorted_id, ssorted_keys. rewrite map_map, map_id. exact H. Qed.
