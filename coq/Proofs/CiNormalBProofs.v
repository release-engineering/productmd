(* C01: the executable check of Model/CiNormalB.v is sound for the hypotheses of the document theorem; its forest part is
   proved sound in ForestRoundtrip.v, its list tests in KeySort.v *)
From PM Require Import Model.ComposeInfo Model.CiNormalB Proofs.ListLemmas Proofs.KeySort Proofs.ForestFlat Proofs.ForestRoundtrip Proofs.CiRoundtrip.

Lemma tree_uids_eq t : tree_uids t = uids t.
Proof.
  induction t as [f p r cs IH] using vtree_ind2. rewrite uids_unfold, forest_uids_flat_map. cbn [tree_uids]. f_equal.
  rewrite (fix_app_flat_map tree_uids), !flat_map_concat_map. f_equal. apply map_ext_in. intros [k c] Hin. exact (IH k c Hin).
Qed.

Theorem ci_applicable_ok x :
  ci_normalb x = true -> ci_distinct_uidsb x = true -> ci_normal x /\ NoDup (forest_uids (ci_variants x)).
Proof.
  intros Hn Hd. split.
  - unfold ci_normalb in Hn. cbv zeta in Hn. repeat (apply andb_true_iff in Hn; let G := fresh "G" in destruct Hn as [Hn G]).
    split; [|split; [|exact (forest_normalb_ok _ G)]].
    + apply obj_eqb_eq in Hn. set (c := ci_compose x) in *.
      exists (getf c (F"id")), (getf c (F"type")), (getf c (F"date")), (getf c (F"respin")), (getf c (F"label")), (truthy (getf c (F"final"))).
      split; [exact Hn|]. destruct (getf c (F"label")) eqn:El; split; try (right; exact G1); try (intros E; discriminate E).
      * left. reflexivity.
      * intros _. apply negb_true_iff in G1. exact G1.
    + apply andb_true_iff in G0. destruct G0 as [Gr Gb]. apply obj_eqb_eq in Gr.
      do 6 eexists. split; [exact Gr|]. destruct (truthy (getf (ci_release x) (F"is_layered"))); apply obj_eqb_eq in Gb; [do 4 eexists|]; exact Gb.
  - apply nodupb_ok. unfold ci_distinct_uidsb in Hd. rewrite forest_uids_flat_map, <- (flat_map_ext _ _ (fun kc => tree_uids_eq (snd kc))).
    exact Hd.
Qed.

Example ex_ci_passes_the_check : ci_normalb ex_ci = true /\ ci_distinct_uidsb ex_ci = true.
Proof. split; vm_compute; reflexivity. Qed.
