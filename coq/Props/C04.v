(* C04 - treeinfo and discinfo survive a write/read cycle unchanged *)
From PM Require Import Base.PyVal Base.Obj Base.Ini Model.Common Model.TreeInfo Proofs.StrLemmas.

(* a "type:value" entry is split at the colon (bare digests, typed by length, are C16_typed_bare) *)
Theorem C04_typed_checksum_roundtrip :
  forall t v, ~ In c_colon t -> ~ In c_colon v ->
  typed_checksum (t ++ c_colon :: v) = Ok (PStr t, PStr v).
Proof.
  intros t v Ht Hv. unfold typed_checksum. rewrite memc_app. cbn [memc]. rewrite N.eqb_refl, orb_true_r.
  rewrite (split_two c_colon t v Ht Hv). reflexivity.
Qed.
Print Assumptions C04_typed_checksum_roundtrip.

(* the tree-level statement - the reader applied to the written table returns the written object up to normalisation - is decided
   by the docs_treeinfo correspondence (model writer vs real writer byte for byte; model reader vs real reader on the section
   table the real parser produced) and the implementation-side oracle; as a Coq theorem it is proved section by section below,
   for childless variants, and without the reader's success (partial). *)

(* writer side of the tree-level round trip: the scalar facts of [release] and [tree] are in the written table at their documented
   places, and no later section writer (variants, checksums, images, stage2, media, general) touches those sections *)
From PM Require Import Proofs.TreeInfoWriter Proofs.TreeInfoReadBack.
Theorem C04_written_release_and_tree :
  forall x mv t, ser_ti x mv = Ok t ->
  exists name_s ver_s short_s arch_s ts_s,
    getf (ti_release x) (F"name") = PStr name_s /\ getf (ti_release x) (F"version") = PStr ver_s /\
    getf (ti_release x) (F"short") = PStr short_s /\ getf (ti_tree x) (F"arch") = PStr arch_s /\
    py_str_num (getf (ti_tree x) (F"build_timestamp")) = Ok ts_s /\
    ini_get t (F"release") (F"name") = Ok name_s /\ ini_get t (F"release") (F"version") = Ok ver_s /\
    ini_get t (F"release") (F"short") = Ok short_s /\
    ini_get t (F"tree") (F"arch") = Ok arch_s /\ ini_get t (F"tree") (F"platforms") = Ok (platforms_str (ti_tree x)) /\
    ini_get t (F"tree") (F"build_timestamp") = Ok ts_s.
Proof.
  intros x mv t H. destruct (release_written x mv t H) as (n & v & s & Hn & Hv & Hs & Gn & Gv & Gs & _).
  destruct (tree_written x mv t H) as (a & ts_s & Ha & Hts & Ga & Gp & Gt & _). exists n, v, s, a, ts_s. auto 12.
Qed.
Print Assumptions C04_written_release_and_tree.

Theorem C04_variant_writer_stays_in_its_sections :
  forall tv parent p p', ser_tvar parent tv p = Ok p' -> only_in is_variant_section p p'.
Proof. intros tv parent p p' H. exact (proj1 (ser_tvar_writes tv parent p p' H)). Qed.
Print Assumptions C04_variant_writer_stays_in_its_sections.

(* reader on the writer's table: the header the writer put there is the current one, and WHATEVER the reader returns for a
   table the writer produced carries the written release name/short/version/is_layered and the tree's arch, platform set and
   (integer part of the) build timestamp. (That the reader does return something is decided by the docs_treeinfo correspondence;
   the other sections follow below.) *)
From PM Require Import Gen.Tables.
Theorem C04_release_and_tree_read_back :
  forall x mv t x', ser_ti x mv = Ok t -> deser_ti t = Ok x' ->
  getf (ti_release x') (F"name") = getf (ti_release x) (F"name") /\
  getf (ti_release x') (F"short") = getf (ti_release x) (F"short") /\
  getf (ti_release x') (F"version") = getf (ti_release x) (F"version") /\
  getf (ti_release x') (F"is_layered") = PBool (truthy (getf (ti_release x) (F"is_layered"))) /\
  getf (ti_tree x') (F"arch") = getf (ti_tree x) (F"arch") /\
  getf (ti_tree x') (F"platforms") = PList (sort_set (map PStr (split_nonempty (platforms_str (ti_tree x))))) /\
  exists ts_s, py_str_num (getf (ti_tree x) (F"build_timestamp")) = Ok ts_s /\
               float_text_to_int ts_s = Ok (getf (ti_tree x') (F"build_timestamp")).
Proof. exact release_and_tree_read_back. Qed.
Print Assumptions C04_release_and_tree_read_back.

Theorem C04_written_header_is_current_and_layered_flag :
  forall x mv t, ser_ti x mv = Ok t ->
  ini_get t (F"header") (F"version") = Ok (show_version VERSION) /\ ini_get t (F"header") (F"type") = Ok ti_mtype /\
  (if truthy (getf (ti_release x) (F"is_layered")) then ini_get t (F"release") (F"is_layered") = Ok (F"true")
   else has_option t (F"release") (F"is_layered") = false).
Proof.
  intros x mv t H. destruct (header_written x mv t H) as [Hv Hty].
  destruct (release_written x mv t H) as (_ & _ & _ & _ & _ & _ & _ & _ & _ & Hl). auto.
Qed.
Print Assumptions C04_written_header_is_current_and_layered_flag.

(* non-vacuity: the example tree of the writer theorem is read back by the model reader *)
Example C04_read_back_nonvacuous : exists t x', ser_ti ex_ti None = Ok t /\ deser_ti t = Ok x'.
Proof. eexists. eexists. split; vm_compute; reflexivity. Qed.

(* [stage2]: whatever the reader returns for a table the writer produced carries the written stage2 images (a falsy entry is not
   written and is read as None); nothing before [stage2] creates that section and nothing after it (media, general) touches it *)
From PM Require Import Proofs.TreeInfoStage2.
Theorem C04_stage2_read_back :
  forall x mv t x', ser_ti x mv = Ok t -> deser_ti t = Ok x' ->
  let m := getf (ti_stage2 x) (F"mainimage") in
  let i := getf (ti_stage2 x) (F"instimage") in
  getf (ti_stage2 x') (F"mainimage") = (if truthy m then m else PNone) /\
  getf (ti_stage2 x') (F"instimage") = (if truthy i then i else PNone).
Proof.
  intros x mv t x' Hw Hr. rewrite (deser_ti_stage2 t x' Hr), (r_stage2_written x mv t Hw). split; reflexivity.
Qed.
Print Assumptions C04_stage2_read_back.

(* an integer build timestamp of ANY size is read back exactly (the unchanged library went through float() here: defect D15) *)
Theorem C04_integer_timestamp_read_back :
  forall x mv t x' z, ser_ti x mv = Ok t -> deser_ti t = Ok x' -> getf (ti_tree x) (F"build_timestamp") = PInt z ->
  getf (ti_tree x') (F"build_timestamp") = PInt z.
Proof.
  intros x mv t x' z Hw Hr Hz. destruct (release_and_tree_read_back x mv t x' Hw Hr) as (_ & _ & _ & _ & _ & _ & ts_s & Hs & Hf).
  rewrite Hz in Hs. injection Hs as <-. rewrite float_text_show_Z in Hf. injection Hf as Hf. symmetry. exact Hf.
Qed.
Print Assumptions C04_integer_timestamp_read_back.

(* [media]: absent when both numbers are falsy (read back as None/None), else both numbers are read back as the integers written *)
Theorem C04_media_read_back :
  forall x mv t x', ser_ti x mv = Ok t -> deser_ti t = Ok x' ->
  let d := getf (ti_media x) (F"discnum") in
  let n := getf (ti_media x) (F"totaldiscs") in
  if negb (truthy d) && negb (truthy n)
  then ti_media x' = [(F"discnum", PNone); (F"totaldiscs", PNone)]
  else exists zd zn, py_int d = Ok (PInt zd) /\ py_int n = Ok (PInt zn) /\
                     ti_media x' = [(F"discnum", PInt zd); (F"totaldiscs", PInt zn)].
Proof. exact media_read_back. Qed.
Print Assumptions C04_media_read_back.

(* [checksums]: every path of the written object is read back with exactly the algorithm/value typed from the text written for
   it ("type:value"; C04_typed_checksum_roundtrip says that is (type, value) when neither contains ':'), and no other path appears *)
From PM Require Import Proofs.TreeInfoChecksums.
Theorem C04_checksums_read_back :
  forall x mv t x', ser_ti x mv = Ok t -> deser_ti t = Ok x' -> NoDup (map fst (ti_checksums x)) ->
  (forall c, In c (ti_checksums x) -> exists tc, typed_checksum (ck_text c) = Ok tc /\ assoc (fst c) (ti_checksums x') = Some tc) /\
  (forall p, ~ In p (map fst (ti_checksums x)) -> assoc p (ti_checksums x') = None).
Proof. exact checksums_read_back. Qed.
Print Assumptions C04_checksums_read_back.

(* [images-<platform>]: every image table of the written object is read back under its platform with exactly its (name, path)
   entries, and no other platform appears.  The reader strips a "-<arch>" suffix from section names (a historical spelling), so the
   statement is for platforms that are the architecture itself or do not end in "-<arch>" - where <arch> is the architecture read
   back, which C04_release_and_tree_read_back equates with the one written.  The proof needs that the written table never holds
   two sections of one name (also proved: every writer step opens a fresh section or sets an option in an existing one). *)
From PM Require Import Proofs.TreeInfoImages.
Theorem C04_image_tables_are_read_back :
  forall x mv t x', ser_ti x mv = Ok t -> deser_ti t = Ok x' -> NoDup (map fst (ti_images x)) ->
  (forall pi, In pi (ti_images x) -> NoDup (map fst (snd pi))) ->
  (forall a, getf (ti_tree x') (F"arch") = PStr a ->
     forall pi, In pi (ti_images x) -> fst pi = a \/ endswith (fst pi) (c_dash :: a) = false) ->
  (forall pi, In pi (ti_images x) ->
     exists tab, assoc (fst pi) (ti_images x') = Some tab /\ forall n v, In (n, v) tab <-> In (n, v) (snd pi)) /\
  (forall k, ~ In k (map fst (ti_images x)) -> assoc k (ti_images x') = None).
Proof. exact images_read_back. Qed.
Print Assumptions C04_image_tables_are_read_back.

Example C04_image_tables_nonvacuous :
  exists t x', ser_ti ex_ti_images None = Ok t /\ deser_ti t = Ok x' /\ NoDup (map fst (ti_images ex_ti_images)) /\
    (forall pi, In pi (ti_images ex_ti_images) -> NoDup (map fst (snd pi))) /\
    getf (ti_tree x') (F"arch") = PStr (F"x86_64") /\
    (forall pi, In pi (ti_images ex_ti_images) -> fst pi = F"x86_64" \/ endswith (fst pi) (c_dash :: F"x86_64") = false) /\
    assoc (F"xen") (ti_images x') = Some [(F"kernel", PStr (F"images/pxeboot/vmlinuz-xen"))].
Proof. exact images_read_back_nonvacuous. Qed.

(* the written table never holds two sections of one name *)
Theorem C04_written_section_names_are_distinct :
  forall x mv t, ser_ti x mv = Ok t -> NoDup (map fst t).
Proof. intros x mv t H. exact (proj1 (ser_ti_frame x mv t H)). Qed.
Print Assumptions C04_written_section_names_are_distinct.

(* .discinfo: the reader returns exactly the object the writer was given - the timestamp (a canonical decimal token: such a token
   is the repr of the float it denotes, CPython's float()/repr() are trusted for that), a description and an architecture that fit
   on a line (non-empty, no newline, no outer blanks; the description not wrapped in quotes), and 'ALL' or any non-empty list of
   integers of any size - and the validators accept it again *)
From PM Require Import Proofs.DiscInfoRoundtrip.
Theorem C04_discinfo_roundtrip :
  forall t desc arch nums text,
  let d := {| di_timestamp := PFloat t; di_description := PStr desc; di_arch := PStr arch; di_disc_numbers := PList nums |} in
  canonical_float t = true -> text_line desc -> strip_quotes desc = desc -> text_line arch ->
  (nums = [PStr (F"ALL")] \/ exists zs, zs <> [] /\ nums = map PInt zs) ->
  dump_di d = Ok text -> load_di text = Ok d.
Proof. exact di_roundtrip. Qed.
Print Assumptions C04_discinfo_roundtrip.

Example C04_discinfo_roundtrip_nonvacuous :
  let d := {| di_timestamp := PFloat (F"1440000000.123"); di_description := PStr (F"Fedora 22"); di_arch := PStr (F"x86_64");
              di_disc_numbers := PList (map PInt [1; 2; 3]%Z) |} in
  canonical_float (F"1440000000.123") = true /\ text_line (F"Fedora 22") /\ strip_quotes (F"Fedora 22") = F"Fedora 22" /\
  text_line (F"x86_64") /\ dump_di d = Ok (join [c_nl] [F"1440000000.123"; F"Fedora 22"; F"x86_64"; F"1,2,3"]) /\
  load_di (join [c_nl] [F"1440000000.123"; F"Fedora 22"; F"x86_64"; F"1,2,3"]) = Ok d.
Proof. exact di_roundtrip_nonvacuous. Qed.

(* ... and with the hypotheses as an executable test, which the harness runs on every generated .discinfo object *)
Theorem C04_discinfo_roundtrip_checked :
  forall d text, di_applicableb d = true -> dump_di d = Ok text -> load_di text = Ok d.
Proof. exact di_roundtrip_checked. Qed.
Print Assumptions C04_discinfo_roundtrip_checked.

(* variants: in a tree whose top-level variants have no children, every variant the reader returns for the written table is one of
   the written variants, with exactly its id, uid, name and type, no children, and every one of the path kinds of the regenerated
   table equal to what was written (a set path as written, an unset one as None).  Proof: the variant writer leaves in its own,
   fresh section exactly these options; no other writer step touches a [variant-*]/[addon-*] section; the reader reads that section. *)
From PM Require Import Proofs.TreeInfoVariants.
Theorem C04_flat_variants_read_back :
  forall x mv t x', ser_ti x mv = Ok t -> deser_ti t = Ok x' -> (forall kv, In kv (ti_variants x) -> flat kv) ->
  forall key v', In (key, v') (ti_variants x') ->
  exists kv, In kv (ti_variants x) /\
    tv_fields v' = [(F"id", getf (tv_fields (snd kv)) (F"id")); (F"uid", getf (tv_fields (snd kv)) (F"uid"));
                    (F"name", getf (tv_fields (snd kv)) (F"name")); (F"type", getf (tv_fields (snd kv)) (F"type"))] /\
    tv_children v' = [] /\
    (forall fld, In fld TI_PATH_FIELDS -> getf (tv_paths v') fld = getf (tv_paths (snd kv)) fld).
Proof.
  intros x mv t x' Hw Hr Hflat key v' Hin. destruct (variants_read x mv t x' Hw Hr) as (read & _ & E & _ & Hd). rewrite E in Hin.
  apply in_map_iff in Hin. destruct Hin as ([vid v] & Ep & Hv). injection Ep as _ <-.
  destruct (read_one x mv t _ vid v Hw Hflat (Hd _ _ Hv)) as (kv & Hk & _ & Fk). exists kv. split; [exact Hk|exact Fk].
Qed.
Print Assumptions C04_flat_variants_read_back.

(* ... and every written variant is returned: for top-level variants that are not of type 'addon' (a top-level variant is read from
   [variant-<uid>], an addon would have been written to [addon-<uid>]) and whose UIDs contain no comma (the [tree] variants list is
   comma-separated).  With the theorem above: the variants read are exactly the variants written, fact by fact. *)
Theorem C04_flat_variants_are_all_read_back :
  forall x mv t x', ser_ti x mv = Ok t -> deser_ti t = Ok x' -> (forall kv, In kv (ti_variants x) -> flat kv) ->
  (forall kv, In kv (ti_variants x) -> py_eq (getf (tv_fields (snd kv)) (F"type")) (PStr (F"addon")) = false) ->
  (forall kv u, In kv (ti_variants x) -> getf (tv_fields (snd kv)) (F"uid") = PStr u -> ~ In c_comma u) ->
  forall kv, In kv (ti_variants x) -> exists key v', In (key, v') (ti_variants x') /\ facts_of kv v'.
Proof. exact flat_variants_complete. Qed.
Print Assumptions C04_flat_variants_are_all_read_back.

Example C04_flat_variants_nonvacuous :
  exists t x' v', ser_ti ex_ti None = Ok t /\ deser_ti t = Ok x' /\ (forall kv, In kv (ti_variants ex_ti) -> flat kv) /\
    (forall kv, In kv (ti_variants ex_ti) -> py_eq (getf (tv_fields (snd kv)) (F"type")) (PStr (F"addon")) = false) /\
    (forall kv u, In kv (ti_variants ex_ti) -> getf (tv_fields (snd kv)) (F"uid") = PStr u -> ~ In c_comma u) /\
    In (F"Server", v') (ti_variants x') /\ getf (tv_paths v') (F"packages") = PStr (F"Packages").
Proof. exact flat_variants_nonvacuous. Qed.

(* the base product: read back name/version/short for a layered release; a release that is not layered is read with none *)
From PM Require Import Proofs.TreeInfoBaseProduct.
Theorem C04_base_product_read_back :
  forall x mv t x', ser_ti x mv = Ok t -> deser_ti t = Ok x' ->
  if truthy (getf (ti_release x) (F"is_layered"))
  then getf (ti_base_product x') (F"name") = getf (ti_base_product x) (F"name") /\
       getf (ti_base_product x') (F"version") = getf (ti_base_product x) (F"version") /\
       getf (ti_base_product x') (F"short") = getf (ti_base_product x) (F"short")
  else ti_base_product x' = [(F"name", PNone); (F"short", PNone); (F"version", PNone)].
Proof. exact base_product_read_back. Qed.
Print Assumptions C04_base_product_read_back.

Example C04_base_product_nonvacuous :
  exists t x', ser_ti ex_ti_layered None = Ok t /\ deser_ti t = Ok x' /\ truthy (getf (ti_release ex_ti_layered) (F"is_layered")) = true /\
    getf (ti_base_product x') (F"short") = PStr (F"RHEL").
Proof. exact base_product_nonvacuous. Qed.

(* the re-read top-level variants are keyed by their UIDs, each key once (whatever their number or shape) *)
Theorem C04_reread_variants_keyed_by_uid :
  forall x mv t x', ser_ti x mv = Ok t -> deser_ti t = Ok x' ->
  NoDup (map fst (ti_variants x')) /\ (forall k v, In (k, v) (ti_variants x') -> k = fmt_s (getf (tv_fields v) (F"uid"))).
Proof.
  intros x mv t x' Hw Hr. destruct (variants_read x mv t x' Hw Hr) as (read & _ & -> & Hn & _). split; [exact Hn|].
  intros k v Hin. apply in_map_iff in Hin. destruct Hin as (p & Ep & _). injection Ep as <- <-. reflexivity.
Qed.
Print Assumptions C04_reread_variants_keyed_by_uid.
