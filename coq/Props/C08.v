(* C08 - serialisation is canonical: output depends on content only *)
From PM Require Import Base.PyVal Base.Obj Base.Json Proofs.StrOrder Proofs.JsonCanon.
From Coq Require Import Permutation.

(* the bytes written for a document are a function of the CONTENT of every mapping in it, at every depth:
   two documents with the same recursively key-sorted form print identically *)
Theorem C08_json_same_content :
  forall a b, nodup_keys a -> nodup_keys b -> canon a = canon b -> print_json a = print_json b.
Proof. intros a b Ha Hb H. unfold print_json. rewrite (print_json_canon a Ha 0), (print_json_canon b Hb 0), H. reflexivity. Qed.
Print Assumptions C08_json_same_content.

(* any reordering of a mapping's entries - insertion order, dict/set iteration order, hash seed - is the same content *)
Theorem C08_reordering_is_same_content :
  forall kv kv', Permutation kv kv' -> NoDup (map fst kv) -> canon (PDict kv) = canon (PDict kv').
Proof.
  intros kv kv' HP Hnd. rewrite !canon_dict. f_equal.
  apply sort_kv_perm; [apply Permutation_map; exact HP|rewrite map_map; exact Hnd].
Qed.
Print Assumptions C08_reordering_is_same_content.

(* sorting by key is canonical: every permutation of distinct keys sorts to the same list *)
Theorem C08_sort_canonical :
  forall l l', Permutation l l' -> NoDup (map fst l) -> sort_kv l = sort_kv l'.
Proof. exact sort_kv_perm. Qed.
Print Assumptions C08_sort_canonical.

(* printing is invariant under canonicalisation (hence idempotent with respect to re-dumping re-read content) *)
Theorem C08_print_canon :
  forall v, nodup_keys v -> forall lvl, print_json_at lvl v = print_json_at lvl (canon v).
Proof. exact print_json_canon. Qed.
Print Assumptions C08_print_canon.

(* lists derived from unordered collections: an image cell is written as its images sorted by path, whatever the
   iteration order of the underlying set (distinct paths per cell, as the property quantifies) *)
From PM Require Import Model.Common Model.Images Proofs.SortProofs.

Theorem C08_cell_order_irrelevant :
  forall imgs imgs' ds,
  Permutation imgs imgs' ->
  mapM (fun im => ser_image (snd im)) imgs = Ok ds -> NoDup (map path_key ds) ->
  ser_cell imgs = ser_cell imgs'.
Proof. exact ser_cell_perm. Qed.
Print Assumptions C08_cell_order_irrelevant.

(* the composeinfo forest: the order in which the top-level variants were added (the iteration order of the container) is not
   content - the whole document is the same *)
From PM Require Import Model.ComposeInfo Proofs.CiRoundtrip.
Theorem C08_composeinfo_variant_order_irrelevant :
  forall x vs', Permutation (ci_variants x) vs' -> NoDup (map fst (ci_variants x)) ->
  dump_ci x = dump_ci {| ci_compose := ci_compose x; ci_release := ci_release x; ci_base_product := ci_base_product x; ci_variants := vs' |}.
Proof. intros x vs' Hp Hn. apply dump_ci_congr; try reflexivity. exact (ser_variants_perm _ _ Hp Hn). Qed.
Print Assumptions C08_composeinfo_variant_order_irrelevant.
