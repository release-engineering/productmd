(* C19 - validation and parsing time grows polynomially with input length *)
From PM Require Import Base.Regex Base.RegexCost Proofs.RegexCostProofs Proofs.RegexSteps Gen.Regexes.
Open Scope nat_scope.

(* The step-counting matcher is the verified matcher (same result on every input)... *)
Theorem C19_same_matcher :
  forall r s, snd (ms r s 0 [] (fun _ _ c => (0, Some c))) = re_match r s.
Proof. intros r s. apply match_spec. Qed.
Print Assumptions C19_same_matcher.

(* ...and for every expression meeting the syntactic criterion [safe], the number of
   steps of a match attempt on ANY string s is at most c * (|s|+1)^d with (c,d) = WP r. *)
Theorem C19_steps_poly :
  forall r s, safe r = true -> match_steps r s <= evalP (WP r) (length s).
Proof. intros r s H. etransitivity; [apply match_spec|apply work_bound, H]. Qed.
Print Assumptions C19_steps_poly.

(* The worst case (every alternative explored) obeys the same bound, and the number of
   points at which an expression can hand over to its continuation is polynomial too. *)
Theorem C19_work_poly :
  forall r, safe r = true -> forall s, work r s <= evalP (WP r) (length s).
Proof. exact work_bound. Qed.
Print Assumptions C19_work_poly.

Theorem C19_exits_poly :
  forall r, safe r = true -> forall s, length (exits r s) <= evalP (EP r) (length s).
Proof. exact exits_bound. Qed.
Print Assumptions C19_exits_poly.

(* Every regular expression the library compiles or matches (regenerated from the
   source on this run: module-level patterns, literals reaching re.* and the field
   validators, patterns captured at run time) meets the criterion. *)
Theorem C19_all_safe : forallb (fun p => safe (snd p)) all_regexes = true.
Proof. vm_compute. reflexivity. Qed.
Print Assumptions C19_all_safe.
