(* C01 - composeinfo survives a write/read cycle unchanged *)
From PM Require Import Base.PyVal Base.Obj Model.Common Proofs.CommonProofs Gen.Tables.

(* header: what is written is read back as the current version with the proper type *)
Theorem C01_header_roundtrip :
  forall mtype rest,
  deser_header mtype (PDict ((lit "header", PDict [(lit "type", PStr mtype); (lit "version", current_version)]) :: rest)) =
  Ok (current_version, VERSION).
Proof. exact deser_header_ser. Qed.
Print Assumptions C01_header_roundtrip.

(* compose section: id, type, date, respin, label and final (only stored next to a label) *)
Theorem C01_compose_roundtrip :
  forall c j rest, compose_normal c -> ser_compose c = Ok j ->
  deser_compose VERSION (PDict ((lit "compose", j) :: rest)) = Ok c.
Proof. exact deser_compose_ser. Qed.
Print Assumptions C01_compose_roundtrip.

From PM Require Import Proofs.ReleaseRoundtrip Model.ComposeInfo.
Theorem C01_release_roundtrip :
  forall name version short ty lay internal sec j kv,
  let r := mk_release name version short ty lay internal in
  ser_release release_cls (F"release") r = Ok (sec, j) -> dget (PDict kv) (F"release") = Ok j ->
  deser_release VERSION (PDict kv) = Ok r.
Proof. exact release_roundtrip. Qed.
Print Assumptions C01_release_roundtrip.

Theorem C01_base_product_roundtrip :
  forall name version short ty sec j kv,
  let b := mk_base_product name version short ty in
  ser_release bp_cls (F"base_product") b = Ok (sec, j) -> dget (PDict kv) (F"base_product") = Ok j ->
  deser_base_product (PDict kv) = Ok b.
Proof. exact base_product_roundtrip. Qed.
Print Assumptions C01_base_product_roundtrip.

From PM Require Import Proofs.PathsRoundtrip.
Theorem C01_paths_roundtrip :
  forall arches archs paths, strs_of (sort_set arches) = Some archs ->
  deser_paths arches (ser_paths arches paths) = Ok (ser_paths_tab archs paths).
Proof. exact paths_roundtrip. Qed.
Print Assumptions C01_paths_roundtrip.

Theorem C01_written_paths_are_the_truthy_entries_of_the_variants_arches :
  forall archs paths name arch,
  get2 (ser_paths_tab archs paths) name arch =
  if existsb (fun p => str_eqb (fst p) arch && str_eqb (snd p) name) (pairs_of_arches archs) then path_val paths arch name else None.
Proof. exact ser_paths_tab_get. Qed.
Print Assumptions C01_written_paths_are_the_truthy_entries_of_the_variants_arches.

From PM Require Import Model.Variants Proofs.LoadValid Proofs.ForestFlat Proofs.ForestRoundtrip Proofs.CiRoundtrip.

(* the writer: the flat "variants" mapping holds exactly one entry per variant of the forest, keyed by its UID, carrying
   id/uid/name/type/sorted arches/(release)/paths/child ids, and every variant passed its validators under its parent *)
Theorem C01_forest_written_exactly :
  forall vs d, ser_variants vs = Ok (PDict d) -> NoDup (forest_uids (sort_keys vs)) ->
  d = flat_list (sort_keys vs) /\ children_valid None (sort_keys vs) /\ validate_container vs = Ok tt.
Proof. exact ser_variants_written. Qed.
Print Assumptions C01_forest_written_exactly.

(* the reader on what the writer produced: the same forest - every field, the parent/child structure at every depth, the
   release of every layered-product variant - with each path table replaced by exactly what was written for it (wp) *)
Theorem C01_forest_roundtrip :
  forall vs d payload, forest_normal vs -> NoDup (forest_uids vs) ->
  ser_variants vs = Ok (PDict d) -> dget payload (F"variants") = Ok (PDict d) ->
  deser_variants VERSION payload = Ok (wp_list vs).
Proof. exact forest_roundtrip. Qed.
Print Assumptions C01_forest_roundtrip.

(* the whole document: header, compose, release, base product (when layered) and the forest *)
Theorem C01_document_roundtrip :
  forall x doc, ci_normal x -> NoDup (forest_uids (ci_variants x)) -> dump_ci x = Ok doc -> load_ci doc = Ok (wp_ci x).
Proof. exact ci_roundtrip. Qed.
Print Assumptions C01_document_roundtrip.

(* writing the re-read object gives the same document (hence the same bytes: print_json is a function of the document),
   and the re-read forest is in normal form again, so the cycle can be repeated *)
Theorem C01_second_write_identical :
  forall x, forest_all node_normal (ci_variants x) -> dump_ci (wp_ci x) = dump_ci x.
Proof. exact ci_second_write. Qed.
Print Assumptions C01_second_write_identical.

Theorem C01_reread_forest_is_normal : forall vs, forest_normal vs -> forest_normal (wp_list vs).
Proof. exact forest_normal_wp. Qed.
Print Assumptions C01_reread_forest_is_normal.

(* the hypotheses are satisfiable by a forest of depth 3 with a layered-product variant, a base product and path tables *)
Theorem C01_roundtrip_hypotheses_reachable :
  ci_normal ex_ci /\ NoDup (forest_uids (ci_variants ex_ci)) /\ exists doc, dump_ci ex_ci = Ok doc.
Proof. exact ci_roundtrip_nonvacuous. Qed.
Print Assumptions C01_roundtrip_hypotheses_reachable.

(* the hypotheses are decidable: Model/CiNormalB.v computes them, the correspondence evaluates that check on every generated
   document (the evidence reports how many generated cases the document theorem covers), and the check is sound *)
From PM Require Import Model.CiNormalB Proofs.CiNormalBProofs.
Theorem C01_executable_hypothesis_check_is_sound :
  forall x, ci_normalb x = true -> ci_distinct_uidsb x = true -> ci_normal x /\ NoDup (forest_uids (ci_variants x)).
Proof. exact ci_applicable_ok. Qed.
Print Assumptions C01_executable_hypothesis_check_is_sound.

Theorem C01_document_roundtrip_checked :
  forall x doc, ci_normalb x = true -> ci_distinct_uidsb x = true -> dump_ci x = Ok doc -> load_ci doc = Ok (wp_ci x).
Proof. intros x doc Hn Hd. destruct (ci_applicable_ok x Hn Hd) as [H1 H2]. exact (ci_roundtrip x doc H1 H2). Qed.
Print Assumptions C01_document_roundtrip_checked.
