(* C20 - a compose directory is resolved to the same metadata in every supported layout *)
From PM Require Import Base.PyVal Model.ComposeDir Proofs.ComposeDirProofs.

Theorem C20_prefers_compose :
  forall exists_ listdir p,
  exists_ (path_join (path_join p (lit "compose")) (lit "metadata/composeinfo.json")) = true ->
  resolve exists_ listdir p = path_join p (lit "compose").
Proof. exact resolve_prefers_compose. Qed.
Print Assumptions C20_prefers_compose.

Theorem C20_direct :
  forall exists_ listdir p,
  exists_ (path_join (path_join p (lit "compose")) (lit "metadata/composeinfo.json")) = false ->
  (forall i, In i (listdir p) -> exists_ (path_join (path_join p i) (lit "metadata")) = false) ->
  resolve exists_ listdir p = p.
Proof. exact resolve_direct. Qed.
Print Assumptions C20_direct.

Theorem C20_legacy :
  forall exists_ listdir p i,
  exists_ (path_join (path_join p (lit "compose")) (lit "metadata/composeinfo.json")) = false ->
  is_url p = false -> exists_ p = true ->
  In i (listdir p) -> exists_ (path_join (path_join p i) (lit "metadata")) = true ->
  (forall j, In j (listdir p) -> exists_ (path_join (path_join p j) (lit "metadata")) = true -> j = i) ->
  resolve exists_ listdir p = path_join p i.
Proof. exact resolve_legacy. Qed.
Print Assumptions C20_legacy.

Theorem C20_trailing_slash :
  forall a b, a <> [] -> endswith a [c_slash] = false -> path_join (a ++ [c_slash]) b = path_join a b.
Proof.
  intros a b Ha He. unfold path_join. destruct (startswith b [c_slash]); [reflexivity|].
  destruct a as [|x a]; [congruence|]. rewrite He, (endswith_app (x :: a) [c_slash]), <- app_assoc. reflexivity.
Qed.
Print Assumptions C20_trailing_slash.

Theorem C20_current_name_first :
  forall exists_ cp cur legacy, exists_ (path_join cp cur) = true -> find_file exists_ cp [cur; legacy] = Ok (path_join cp cur).
Proof. intros exists_ cp cur legacy. apply (find_file_first exists_ cp [] cur [legacy]). intros m []. Qed.
Print Assumptions C20_current_name_first.

Theorem C20_legacy_name_fallback :
  forall exists_ cp cur legacy, exists_ (path_join cp cur) = false -> exists_ (path_join cp legacy) = true ->
  find_file exists_ cp [cur; legacy] = Ok (path_join cp legacy).
Proof. intros exists_ cp cur legacy H. apply (find_file_first exists_ cp [cur] legacy []). intros m [<-|[]]. exact H. Qed.
Print Assumptions C20_legacy_name_fallback.

Theorem C20_missing_is_runtimeerror :
  forall exists_ cp names, (forall n, In n names -> exists_ (path_join cp n) = false) -> find_file exists_ cp names = Err RuntimeError.
Proof.
  intros exists_ cp names H. unfold find_file. destruct (find _ names) as [n|] eqn:E; [|reflexivity].
  apply find_some in E. destruct E as [Hin Hex]. rewrite (H n Hin) in Hex. discriminate.
Qed.
Print Assumptions C20_missing_is_runtimeerror.

Theorem C20_loaded_once : forall A (o : A) load, access (Some o) load = (Some o, Ok o).
Proof. reflexivity. Qed.
Print Assumptions C20_loaded_once.

Theorem C20_undecodable_is_runtimeerror :
  forall A e, In e [ValueError; KeyError; TypeError; AttributeError] -> @wrap_load A (Err e) = Err RuntimeError.
Proof. intros A e [<-|[<-|[<-|[<-|[]]]]]; reflexivity. Qed.
Print Assumptions C20_undecodable_is_runtimeerror.
