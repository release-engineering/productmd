(* C13 - RPM name-epoch:version-release.arch strings are parsed back to their parts *)
From PM Require Import Base.PyVal Model.Nvra Proofs.NvraProofs Proofs.C13Proofs Gen.Tables.

(* For every legal name, optional epoch, version, release and table arch, with any
   directory prefix and with or without ".rpm": parsing returns exactly the parts,
   epoch 0 when none is given. *)
Theorem C13_roundtrip :
  forall dir name eo version release arch sfx,
    legal_dir dir -> legal_sfx sfx ->
    forallb name_char name = true -> forallb vr_char version = true -> forallb vr_char release = true ->
    In arch RPM_ARCHES ->
    parse_nvra (dir ++ fmt name eo version release arch ++ sfx) =
    Ok {| n_name := name; n_epoch := epoch_of eo; n_version := version; n_release := release; n_arch := arch |}.
Proof. exact c13_roundtrip. Qed.
Print Assumptions C13_roundtrip.

(* The canonical form of legal parts (format_nevra: epoch always spelled out) parses back to those parts. *)
Theorem C13_fixpoint : forall p, legal_parts p -> parse_nvra (format_nevra p) = Ok p.
Proof. exact c13_fixpoint. Qed.
Print Assumptions C13_fixpoint.

(* The general form the two above are instances of: hypotheses on single characters only, no alphabet and no table. *)
Theorem C13_roundtrip_gen :
  forall dir name eo version release arch sfx,
  (dir = [] \/ exists d, dir = d ++ [c_slash]) -> ~ In c_nl dir ->
  (sfx = [] \/ sfx = dot_rpm) ->
  ~ In c_slash name -> ~ In c_nl name ->
  ~ In c_dash version -> ~ In c_slash version -> ~ In c_nl version -> ~ In c_colon version ->
  ~ In c_dash release -> ~ In c_slash release -> ~ In c_nl release ->
  ~ In c_dot arch -> ~ In c_slash arch -> ~ In c_nl arch -> arch <> lit "rpm" ->
  parse_nvra (dir ++ fmt name eo version release arch ++ sfx) =
  Ok {| n_name := name; n_epoch := epoch_of eo; n_version := version; n_release := release; n_arch := arch |}.
Proof. exact nvra_roundtrip_gen. Qed.
Print Assumptions C13_roundtrip_gen.
