(* C06 - only objects meeting every documented field constraint can be written *)
From PM Require Import Base.PyVal Base.Obj Model.Common Proofs.Monad Gen.Validators.

(* the assertion vocabulary raises only TypeError / ValueError (given that explicit raises are of those classes) *)
Fixpoint raises_ok (e : vexpr) : bool :=
  match e with
  | VRaise TypeError | VRaise ValueError => true
  | VRaise _ => false
  | VIf _ body => forallb raises_ok body
  | _ => true
  end.

Lemma eval_cond_err o c e : eval_cond o c = Err e -> e = TypeError.
Proof.
  revert e; induction c as [f|f|r f|c IH|a IHa b IHb|a IHa b IHb]; intros e H; cbn [eval_cond] in H; try discriminate.
  - destruct (getf o f); try discriminate; congruence.
  - apply bind_err in H. destruct H as [H|(x & _ & H)]; [exact (IH e H)|discriminate].
  - apply bind_err in H. destruct H as [H|([] & _ & H)]; [exact (IHa e H)|exact (IHb e H)|discriminate].
  - apply bind_err in H. destruct H as [H|([] & _ & H)]; [exact (IHa e H)|discriminate|exact (IHb e H)].
Qed.

(* every translated validator body of every class meets the side condition (obligation on the regenerated table) *)
Definition all_bodies_raise_ok : bool :=
  forallb (fun cls => forallb (fun m => match snd m with VBody b => forallb raises_ok b | VCustom _ => true end) (snd cls)) VALIDATORS.

Theorem C06_translated_validators_raise_type_or_value_error : all_bodies_raise_ok = true.
Proof. vm_compute. reflexivity. Qed.
Print Assumptions C06_translated_validators_raise_type_or_value_error.

Theorem C06_vexpr_error_class :
  forall o e x, raises_ok e = true -> run_vexpr o e = Err x -> x = TypeError \/ x = ValueError.
Proof.
  intros o. fix IH 1. intros e x Hok H. destruct e as [f tags|f tbl|f|f rs|c body|ex|]; cbn [run_vexpr] in H.
  1-3: apply guard_err in H; auto.
  - destruct (getf o f); try (destruct rs; injection H as <-; auto). apply guard_err in H. auto.
  - apply bind_err in H. destruct H as [H|([] & _ & H)]; [left; exact (eval_cond_err o c x H)| |discriminate].
    cbn [raises_ok] in Hok. induction body as [|b body IHb]; [discriminate|].
    cbn [forallb] in Hok. apply andb_true_iff in Hok. destruct Hok as [Hb Hrest].
    apply bind_err in H. destruct H as [H|(? & _ & H)]; [exact (IH b x Hb H)|exact (IHb Hrest H)].
  - destruct ex; try discriminate; injection H as <-; auto.
  - discriminate.
Qed.
Print Assumptions C06_vexpr_error_class.

(* validate() = all flat rules of the translated validators + all hand-modelled validators *)
From PM Require Import Proofs.RuleSem Proofs.SpecRules.
Theorem C06_validate_iff_rules : forall ct ms o,
  run_validators ct ms o = Ok tt <->
  Forall (rule_holds o) (rules_of ms) /\
  Forall (fun q => match ct q with Some f => f o = Ok tt | None => False end) (customs_of ms).
Proof. exact run_validators_iff. Qed.
Print Assumptions C06_validate_iff_rules.

(* obligation on the regenerated validator table: class by class it flattens to exactly the documented rules *)
Theorem C06_regenerated_rules_are_the_documented_ones : rules_match_documentation = true.
Proof. vm_compute. reflexivity. Qed.
Print Assumptions C06_regenerated_rules_are_the_documented_ones.

(* milestone labels: a string matches one of the regenerated label patterns iff it is <name>-<int>.<int> for a name of the
   regenerated LABEL_NAMES table (the patterns are checked to be built from that table); header versions: <digits>.<digits> *)
From PM Require Import Base.Regex Proofs.LangProofs2 Gen.Regexes Gen.Tables.
Theorem C06_label_language :
  forall s, existsb (fun r => re_matches r s) re_labels = true <->
  exists name body, In name LABEL_NAMES /\ (s = body \/ s = body ++ [c_nl]) /\ DocLabel name body.
Proof. exact label_lang. Qed.
Print Assumptions C06_label_language.

Theorem C06_header_version_language :
  forall s, re_matches re_header_version s = true <-> exists body, (s = body \/ s = body ++ [c_nl]) /\ DocHeaderVersion body.
Proof. exact header_version_lang. Qed.
Print Assumptions C06_header_version_language.
