(* C07 - documents violating a documented constraint are rejected on load *)
From PM Require Import Base.PyVal Base.Obj Model.Common Model.Images Model.ComposeInfo Proofs.CommonProofs Proofs.ImagesManifest
  Proofs.LoadValid Gen.Tables.

(* the header gate: from format 1.1 on, a document naming another metadata type is rejected with ValueError;
   a version that does not validate is rejected *)
Theorem C07_header_gate :
  forall mtype doc h v vt t,
  dget doc (lit "header") = Ok h -> dget h (lit "version") = Ok v ->
  version_tuple (lit "common.Header") v = Ok vt -> vt_leb (1, 1) vt = true ->
  dget h (lit "type") = Ok t -> py_eq t (PStr mtype) = false ->
  deser_header mtype doc = Err ValueError.
Proof.
  intros mtype doc h v vt t Hh Hv Hvt Hle Ht Hne. unfold deser_header.
  rewrite Hh. cbn [bind]. rewrite Hv. cbn [bind]. rewrite Hvt. cbn [bind]. rewrite Hle, Ht. cbn [bind]. rewrite Hne. reflexivity.
Qed.
Print Assumptions C07_header_gate.

Theorem C07_header_malformed_version :
  forall mtype doc h v e,
  dget doc (lit "header") = Ok h -> dget h (lit "version") = Ok v ->
  version_tuple (lit "common.Header") v = Err e -> deser_header mtype doc = Err e.
Proof.
  intros mtype doc h v e Hh Hv Hvt. unfold deser_header. rewrite Hh. cbn [bind]. rewrite Hv. cbn [bind]. rewrite Hvt. reflexivity.
Qed.
Print Assumptions C07_header_malformed_version.

(* whatever compose section a successful load returns has passed the regenerated Compose validators *)
Theorem C07_loaded_compose_is_valid :
  forall vt payload c, deser_compose vt payload = Ok c -> validate compose_cls c = Ok tt.
Proof. exact deser_compose_valid. Qed.
Print Assumptions C07_loaded_compose_is_valid.

(* what a successful load returns satisfies what writing enforces *)
Theorem C07_loaded_images_are_valid :
  forall doc st, load_images doc = Ok st -> cells_valid (im_cells st) /\ validate compose_cls (im_compose st) = Ok tt.
Proof. exact load_images_valid. Qed.
Print Assumptions C07_loaded_images_are_valid.

Theorem C07_loaded_images_are_writable : forall doc st, load_images doc = Ok st -> exists doc', ser_images st = Ok doc'.
Proof.
  intros doc st H. destruct (load_images_valid doc st H) as [Hv Hc].
  eexists. apply ser_images_spec. eexists. split; [unfold ser_compose; rewrite Hc; reflexivity|]. split; [exact Hv|reflexivity].
Qed.
Print Assumptions C07_loaded_images_are_writable.

(* composeinfo: what load_ci returns has passed the validators the writer runs - the compose and release sections, the base
   product of a layered release, and every variant of the forest in the context of its parent *)
Theorem C07_loaded_composeinfo_is_valid :
  forall doc x, load_ci doc = Ok x ->
  validate compose_cls (ci_compose x) = Ok tt /\ validate release_cls (ci_release x) = Ok tt /\
  (truthy (getf (ci_release x) (F"is_layered")) = true -> validate bp_cls (ci_base_product x) = Ok tt) /\
  children_valid None (ci_variants x).
Proof. exact load_ci_valid. Qed.
Print Assumptions C07_loaded_composeinfo_is_valid.

(* treeinfo: everything a successful load returns has passed the validators the writer runs - release, base product (when
   layered), tree, EVERY variant of the tree in the context of its parent, the variants container, checksum paths, image paths
   and platforms, stage2, media (tv_valid_unfold reads the variant clause: every child, under the uid of its parent).  deser_ti
   takes every table whose [header] names a version other than 0.0, reading [product] for [release] up to 0.3; tables without
   one (pre-productmd files) go through Model/TreeInfo00.v *)
From PM Require Import Base.Ini Model.TreeInfo Proofs.TreeInfoLoadValid.
Theorem C07_loaded_treeinfo_is_valid :
  forall t x, deser_ti t = Ok x ->
  tvalidate (F"treeinfo.Release") (ti_release x) = Ok tt /\
  (truthy (getf (ti_release x) (F"is_layered")) = true -> tvalidate (F"treeinfo.BaseProduct") (ti_base_product x) = Ok tt) /\
  tvalidate (F"treeinfo.Tree") (ti_tree x) = Ok tt /\
  ti_variants_valid (ti_variants x) /\
  tvalidate (F"treeinfo.Variants") [(F"_children", PList (map (tv_child_entry true) (sort_keys (ti_variants x))))] = Ok tt /\
  tvalidate (F"treeinfo.Checksums") [(F"_checksum_paths", PList (map (fun c => PStr (fst c)) (ti_checksums x)))] = Ok tt /\
  tvalidate (F"treeinfo.Images") (images_ctx x) = Ok tt /\
  tvalidate (F"treeinfo.Stage2") (ti_stage2 x) = Ok tt /\
  tvalidate (F"treeinfo.Media") (ti_media x) = Ok tt.
Proof. exact deser_ti_valid. Qed.
Print Assumptions C07_loaded_treeinfo_is_valid.

(* the header-version gate is exactly the documented syntax: the regenerated pattern of Header._validate_version accepts
   <digits>.<digits> (Python's $ also admits one trailing newline, O1) and nothing else *)
From PM Require Import Base.Regex Proofs.LangProofs2 Gen.Regexes.
Theorem C07_header_version_language :
  forall s, re_matches re_header_version s = true <-> exists body, (s = body \/ s = body ++ [c_nl]) /\ DocHeaderVersion body.
Proof. exact header_version_lang. Qed.
Print Assumptions C07_header_version_language.
