(* C18 - a dump that fails validation leaves the destination file untouched *)
From PM Require Import Base.PyVal Base.Json Model.Common Model.Dump Proofs.DumpProofs.

(* whatever the outcome of validating and serialising the object (any format, any nested failure point):
   a failed dump leaves every file - the destination included - exactly as it was; none is created *)
Theorem C18_dump_atomic :
  forall ser f p e, snd (dump_path ser f p) = Err e -> fst (dump_path ser f p) = f.
Proof. exact dump_atomic. Qed.
Print Assumptions C18_dump_atomic.

Theorem C18_dump_ok_writes :
  forall ser f p, snd (dump_path ser f p) = Ok tt ->
  exists d, ser = Ok d /\ assoc p (fst (dump_path ser f p)) = Some (print_json d) /\
            forall q, q <> p -> assoc q (fst (dump_path ser f p)) = assoc q f.
Proof. exact dump_ok_writes. Qed.
Print Assumptions C18_dump_ok_writes.

(* the validate / open / serialise order the code used to have does NOT have the property (defect D1) *)
Theorem C18_open_first_refuted :
  exists f p e, assoc p f = Some (lit "last good copy") /\
    snd (dump_path_open_first (Ok tt) (Err e) f p) = Err e /\
    assoc p (fst (dump_path_open_first (Ok tt) (Err e) f p)) = Some [].
Proof. exists [(lit "composeinfo.json", lit "last good copy")], (lit "composeinfo.json"), ValueError. vm_compute. auto. Qed.
Print Assumptions C18_open_first_refuted.
