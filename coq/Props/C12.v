(* C12 - manifest builders file each entry exactly where the arguments say *)
From PM Require Import Base.PyVal Base.Regex Model.Nvra Model.Manifests Proofs.Monad Proofs.ListLemmas Proofs.ManifestsProofs
  Proofs.DocArches Gen.Tables.

(* Rpms.add refines one map update at the canonical key: the entry is filed under
   (variant, arch, canonical source-package NEVRA, canonical NEVRA) with the given path and
   category and a lower-cased signing key; every other entry is unchanged. *)
Theorem C12_rpms_add_refines :
  forall m v a n p sg c sr m',
  rpms_add m v a n p sg c sr = Ok m' ->
  exists nc nd sc,
    check_nevra n = Ok (nc, nd) /\ srpm_key nc sr = Ok sc /\ rpms_pre a n p c sr = true /\
    rpms_get m' v a sc nc = Some {| e_sigkey := option_map lower sg; e_path := p; e_category := c |} /\
    forall v' a' s' r', (v', a', s', r') <> (v, a, sc, nc) -> rpms_get m' v' a' s' r' = rpms_get m v' a' s' r'.
Proof. exact rpms_add_refines. Qed.
Print Assumptions C12_rpms_add_refines.

(* acceptance is exactly the conjunction of the documented preconditions, whatever the order of the checks *)
Theorem C12_rpms_add_accepts_iff :
  forall m v a n p sg c sr, (exists m', rpms_add m v a n p sg c sr = Ok m') <-> rpms_pre a n p c sr = true.
Proof. exact rpms_add_accepts_iff. Qed.
Print Assumptions C12_rpms_add_accepts_iff.

(* a refused call raises ValueError (the model returns no new state: nothing changes) *)
Theorem C12_rpms_add_refusal_class :
  forall m v a n p sg c sr e, rpms_add m v a n p sg c sr = Err e -> e = ValueError.
Proof. exact rpms_add_refusal_class. Qed.
Print Assumptions C12_rpms_add_refusal_class.

Theorem C12_modules_add_refines :
  forall m v a uid kt mp c rl m',
  modules_add m v a uid kt mp c rl = Ok m' ->
  exists uc name stream version context rpms,
    check_uid uid = Ok (uc, (name, stream, version, context)) /\ rl = Some rpms /\
    v <> [] /\ kt <> [] /\ mp <> [] /\ startswith mp [c_slash] = false /\
    mem_str a MODULES_ARCHES = true /\ mem_str c MODULES_CATEGORIES = true /\
    (exists e, modules_get m' v a uc = Some e /\
       md_uid e = uc /\ md_name e = name /\ md_stream e = stream /\ md_version e = version /\ md_context e = context /\
       md_koji_tag e = kt /\ assoc c (md_paths e) = Some mp /\
       (forall c', c' <> c -> assoc c' (md_paths e) = match modules_get m v a uc with Some o => assoc c' (md_paths o) | None => None end) /\
       md_rpms e = (match modules_get m v a uc with Some o => md_rpms o | None => [] end) ++ rpms) /\
    forall v' a' u', (v', a', u') <> (v, a, uc) -> modules_get m' v' a' u' = modules_get m v' a' u'.
Proof. exact modules_add_refines. Qed.
Print Assumptions C12_modules_add_refines.

Theorem C12_modules_add_refusal_class :
  forall m v a uid kt mp c rl e, modules_add m v a uid kt mp c rl = Err e -> e = ValueError.
Proof. exact modules_add_refusal_class. Qed.
Print Assumptions C12_modules_add_refusal_class.

Theorem C12_extra_add_refines :
  forall m v a p sz cs m',
  extra_add m v a p sz cs = Ok m' ->
  exists c, cs = Some c /\ v <> [] /\ p <> [] /\ startswith p [c_slash] = false /\ mem_str a EXTRA_ARCHES = true /\
    extra_get m' v a = extra_get m v a ++ [{| x_file := p; x_size := sz; x_checksums := c |}] /\
    forall v' a', (v', a') <> (v, a) -> extra_get m' v' a' = extra_get m v' a'.
Proof. exact extra_add_refines. Qed.
Print Assumptions C12_extra_add_refines.

Theorem C12_extra_add_refusal_class :
  forall m v a p sz cs e, extra_add m v a p sz cs = Err e -> e = ValueError \/ e = TypeError.
Proof.
  intros m v a p sz cs e H. unfold extra_add in H.
  repeat (apply check_err in H; destruct H as [H|H]; [left; exact H|]).
  destruct cs; cbn in H; [discriminate|]. right. congruence.
Qed.
Print Assumptions C12_extra_add_refusal_class.

(* dump_for_tree strips the base path exactly on a path-component boundary *)
Theorem C12_relative_to_strips :
  forall root p, (forall r', root <> r' ++ [c_slash]) -> relative_to (root ++ c_slash :: p) root = p.
Proof.
  intros root p H. unfold relative_to. rewrite (strip_right_noslash_end root H).
  change (root ++ c_slash :: p) with (root ++ [c_slash] ++ p). rewrite app_assoc, startswith_app.
  apply skipn_app_exact. reflexivity.
Qed.
Print Assumptions C12_relative_to_strips.

Theorem C12_relative_to_keeps :
  forall root path,
  startswith path (strip_right (fun c => N.eqb c c_slash) root ++ [c_slash]) = false -> relative_to path root = path.
Proof. intros root path H. unfold relative_to. rewrite H. reflexivity. Qed.
Print Assumptions C12_relative_to_keeps.

(* every architecture name the library documents is in the regenerated table, so Rpms.add accepts it (rpms_pre tests
   membership in that table): a table edit that loses a documented name breaks this obligation *)
Theorem C12_documented_architectures_are_known :
  forall a, In a DOC_RPM_ARCHES -> mem_str a RPM_ARCHES = true.
Proof. exact documented_arch_is_known. Qed.
Print Assumptions C12_documented_architectures_are_known.
