(* C14 - release ids round-trip; create_part, by which create_release_id builds each of its parts, refuses precisely what the predicates refuse *)
From PM Require Import Base.PyVal Base.Regex Model.ReleaseId Proofs.ReleaseIdProofs Gen.Tables.

(* For every short/version/type create_release_id accepts (type among the known release
   types, version free of '-' and '@'), with or without a base product, outside the
   inherently ambiguous class K2: parse_release_id returns exactly those parts. *)
Theorem C14_roundtrip :
  forall s v t bp id,
  In t RELEASE_TYPES -> ~ In c_dash v -> ~ In c_at v -> ~ K2 s v t ->
  match bp with
  | None => True
  | Some (bs, bv, bt) => In bt RELEASE_TYPES /\ ~ In c_dash bv /\ ~ In c_at bv /\ ~ K2 bs bv bt
  end ->
  create_release_id s v t bp = Ok id ->
  parse_release_id id = Ok ((s, v, t), bp).
Proof. exact relid_roundtrip. Qed.
Print Assumptions C14_roundtrip.

(* The excluded class is inherent in the id format: two accepted tuples with known types, one id. *)
Theorem C14_ambiguous :
  exists id, create_release_id (lit "a-b") (lit "eus") (lit "ga") None = Ok id /\
             create_release_id (lit "a") (lit "b") (lit "eus") None = Ok id /\
             In (lit "eus") RELEASE_TYPES /\ In (lit "ga") RELEASE_TYPES.
Proof. exact relid_ambiguous. Qed.
Print Assumptions C14_ambiguous.

(* create_part (one part: release or base product) refuses precisely what the three predicates refuse. *)
Theorem C14_create_refuses_iff :
  forall s v t,
  create_part s v t = Err ValueError <-> valid_short s = false \/ valid_version v = false \/ valid_type t = false.
Proof.
  intros s v t. unfold create_part.
  destruct (valid_short s), (valid_version v), (valid_type t); cbn [negb]; split; intros H;
    try reflexivity; try discriminate; try (destruct H as [H|[H|H]]; discriminate); auto.
Qed.
Print Assumptions C14_create_refuses_iff.

(* The three predicates accept exactly the documented languages (up to Python's '$' also matching before a final newline):
   short names and types: a lowercase letter followed by lowercase alphanumerics in non-empty dash-separated segments;
   versions: dot-separated decimal integers, or any non-empty one-line string not starting with a digit.
   The predicates are the patterns regenerated from the source, run by the matcher proved sound and complete. *)
From PM Require Import Proofs.LangProofs.

Theorem C14_short_lang :
  forall s, valid_short s = true <-> exists body, (s = body \/ s = body ++ [c_nl]) /\ DocShort body.
Proof. exact valid_short_lang. Qed.
Print Assumptions C14_short_lang.

Theorem C14_type_lang :
  forall s, valid_type s = true <-> exists body, (s = body \/ s = body ++ [c_nl]) /\ DocShort body.
Proof. exact valid_type_lang. Qed.
Print Assumptions C14_type_lang.

Theorem C14_version_lang :
  forall s, valid_version s = true <-> exists body, (s = body \/ s = body ++ [c_nl]) /\ DocVersion body.
Proof. exact valid_version_lang. Qed.
Print Assumptions C14_version_lang.
