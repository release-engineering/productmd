(* C11 - the variant forest stays consistent and every variant is findable *)
From PM Require Import Base.PyVal Base.Obj Model.Common Model.Variants Proofs.KeyedSort Proofs.VariantsProofs.

(* a refused add leaves the whole object graph - parent pointers included - as it was *)
Theorem C11_add_refused_noop :
  forall h c v vid e, snd (variant_add h c v vid) = Err e -> fst (variant_add h c v vid) = h.
Proof.
  intros h c v vid e. destruct (variant_add_cases h c v vid) as [(e' & ->)|(_ & _ & [->|(key & ->)])]; [reflexivity|discriminate|discriminate].
Qed.
Print Assumptions C11_add_refused_noop.

(* an accepted add under a variant has passed the UID-alignment and parent-arch validators of the regenerated
   inventory with its parent pointer set to the container, and is not one of the container's ancestors *)
Theorem C11_add_accepted_child :
  forall h c v vid h', variant_add h c v vid = (h', Ok tt) -> c <> O ->
  let h1 := set_parent h v (Some c) in
  validate_variant h1 v = Ok tt /\
  custom_variant_uid (variant_ctx h1 v) = Ok tt /\ custom_parent_arch (variant_ctx h1 v) = Ok tt /\
  ~ In v (ancestors (length h1) h1 c).
Proof. exact variant_add_accepted_child. Qed.
Print Assumptions C11_add_accepted_child.

(* everything get_variants returns has the requested architecture and one of the requested types, at every depth *)
Theorem C11_get_variants_sound :
  forall fuel h arch types, mem_str (lit "self") types = false ->
  forall c recursive r, In r (get_variants fuel h c arch types recursive) ->
  type_matches h r types = true /\ arch_matches h r arch = true.
Proof. exact get_variants_sound. Qed.
Print Assumptions C11_get_variants_sound.

(* no filter: exactly the variants of the level *)
Theorem C11_get_variants_all_level :
  forall fuel h c r, In r (get_variants (S fuel) h c None [] false) <-> In r (map snd (vn_children (node h c))).
Proof.
  intros fuel h c r. cbn [get_variants mem_str filter app]. rewrite sort_by_uid_eq, sortl_by_In, in_flat_map, in_map_iff. split.
  - intros (kv & Hkv & Hin). cbn in Hin. destruct Hin as [<-|[]]. exists kv. auto.
  - intros (kv & <- & Hkv). exists kv. split; [exact Hkv|]. cbn. left. reflexivity.
Qed.
Print Assumptions C11_get_variants_all_level.

(* the edge invariant over ALL add histories: in every heap reachable from freshly created objects by any sequence of add calls
   (accepted or refused, in any order, re-adds and re-parenting included), each child that points back to its parent variant has
   the UID <parent UID>-<own id> and architectures within its parent's *)
From PM Require Import Proofs.ForestProofs.
Theorem C11_reach_edge_invariant :
  forall h ops, fresh_heap h -> no_pseudo h ->
  Inv (fold_left apply_vop ops h) /\ no_pseudo (fold_left apply_vop ops h).
Proof. exact reach_inv. Qed.
Print Assumptions C11_reach_edge_invariant.

(* the step of that induction: one add call, accepted or refused, keeps the invariant *)
Theorem C11_add_preserves_edge_invariant :
  forall h c v vid, no_pseudo h -> Inv h -> Inv (fst (variant_add h c v vid)).
Proof. intros h c v vid Hnp HI. apply variant_add_keeps; assumption. Qed.
Print Assumptions C11_add_preserves_edge_invariant.

Theorem C11_get_variants_ordered_by_uid :
  forall fuel h c arch types recursive,
  Sorting.Sorted.StronglySorted (uid_le h) (get_variants fuel h c arch types recursive).
Proof. exact get_variants_sorted. Qed.
Print Assumptions C11_get_variants_ordered_by_uid.
