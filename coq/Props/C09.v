(* C09 - image identity is unique within a manifest *)
From PM Require Import Base.PyVal Base.Obj Model.Common Model.Images Model.Manifests Proofs.Monad Proofs.ImagesProofs
  Proofs.LoadValid Gen.Tables.

(* In every manifest of format >= 1.1 reachable from a fresh one by ANY sequence of add calls
   (refused calls leave it as it was), no two images with the same identity have different checksums. *)
Theorem C09_reach_inv :
  forall vt ops, vt_leb (1, 1) vt = true -> Inv (fold_left (apply_add vt) ops []).
Proof. exact reach_inv. Qed.
Print Assumptions C09_reach_inv.

Theorem C09_add_preserves_inv :
  forall vt c v a img c', vt_leb (1, 1) vt = true -> Inv c -> images_add vt c v a img = Ok c' -> Inv c'.
Proof. exact add_preserves_inv. Qed.
Print Assumptions C09_add_preserves_inv.

(* an add is accepted iff the arch is a known binary arch and (from 1.1 on) no placed image collides;
   below 1.1 identity is not checked (the documented exemption); a refusal is ValueError *)
Theorem C09_add_accepts_iff :
  forall vt c v a img,
  (exists c', images_add vt c v a img = Ok c') <->
  mem_str a RPM_ARCHES = true /\ is_src_arch a = false /\ (vt_leb (1, 1) vt = true -> collides c (snd img) = false).
Proof.
  intros vt c v a img. split.
  - intros [c' H]. apply images_add_spec in H. tauto.
  - intros (H1 & H2 & H3). eexists. apply images_add_spec. eauto.
Qed.
Print Assumptions C09_add_accepts_iff.

Theorem C09_add_refusal_class :
  forall vt c v a img e, images_add vt c v a img = Err e -> e = ValueError.
Proof.
  intros vt c v a img e H. unfold images_add in H.
  repeat (apply check_err in H; destruct H as [H|H]; [exact H|]). discriminate.
Qed.
Print Assumptions C09_add_refusal_class.

(* identity = the seven documented attributes (unified defaulting to False, additional_variants to []);
   re-checked against the regenerated UNIQUE_IMAGE_ATTRIBUTES *)
Theorem C09_identify_spec :
  forall a b, same_identity a b = true <->
  forall f, In f documented7 -> py_eq (identify_attr (getf a) f) (identify_attr (getf b) f) = true.
Proof. exact identify_spec. Qed.
Print Assumptions C09_identify_spec.

(* the identity computed from an Image object equals the identity computed from its serialised dictionary *)
Theorem C09_identify_ser :
  forall o d, ser_image o = Ok (PDict d) -> identify_dict d = identify_obj o.
Proof. exact identify_ser. Qed.
Print Assumptions C09_identify_ser.

(* ... and whatever loaded file produced the manifest: every image of a document goes through add (for source images of format
   <= 1.1 once per binary architecture), so a loaded manifest of format >= 1.1 satisfies the same invariant - equivalently, a
   document containing two images of one identity with different checksums is rejected on load *)
Theorem C09_loaded_manifest_is_unique :
  forall doc st v vt, deser_header images_mtype doc = Ok (v, vt) -> vt_leb (1, 1) vt = true ->
  load_images doc = Ok st -> Inv (im_cells st).
Proof.
  intros doc st v vt Hh Hvt H. destruct (load_images_ind _ _ H) as (hv & payload & Hh' & _ & Hcells).
  rewrite Hh in Hh'. apply Ok_inj in Hh'. subst hv. apply Hcells; [exact inv_empty|].
  intros c va a n d o c' Hc _. exact (add_preserves_inv vt c va a (n, o) c' Hvt Hc).
Qed.
Print Assumptions C09_loaded_manifest_is_unique.
