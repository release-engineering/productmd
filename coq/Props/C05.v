(* C05 - older format versions are upgraded faithfully and idempotently *)
From PM Require Import Base.PyVal Base.Obj Model.Common Proofs.Monad Proofs.CommonProofs Gen.Tables.

(* whatever version a document was read from, what is written carries the current version and the proper type *)
Theorem C05_written_header_is_current :
  forall mtype, ser_header mtype = Ok (PDict [(lit "type", PStr mtype); (lit "version", current_version)]).
Proof. exact ser_header_ok. Qed.
Print Assumptions C05_written_header_is_current.

(* a written header is read back as the current version, so re-loading an upgraded file takes the current-format branches *)
Theorem C05_upgraded_header_reads_as_current :
  forall mtype rest,
  deser_header mtype (PDict ((lit "header", PDict [(lit "type", PStr mtype); (lit "version", current_version)]) :: rest)) =
  Ok (current_version, VERSION).
Proof. exact deser_header_ser. Qed.
Print Assumptions C05_upgraded_header_reads_as_current.

(* the legacy compose reader (format < 0.3) takes date, type and respin from the id through the compose-id decoder of C15 *)
Theorem C05_legacy_compose_uses_id_decoder :
  forall payload sec id label0 ty c,
  dget payload (lit "compose") = Ok sec -> dget sec (lit "id") = Ok (PStr id) ->
  dget_default sec (lit "label") PNone = Ok label0 -> dget sec (lit "type") = Ok ty ->
  deser_compose (0, 2)%N payload = Ok c ->
  exists r, ComposeId.get_date_type_respin id = Ok r /\
            getf c (lit "date") = fst (fst (p_dtr r)) /\ getf c (lit "type") = snd (fst (p_dtr r)) /\ getf c (lit "respin") = snd (p_dtr r).
Proof.
  intros payload sec id label0 ty c H1 H2 H3 H4 H. unfold deser_compose in H.
  rewrite H1 in H. cbn [bind] in H. rewrite H2 in H. cbn [bind] in H. rewrite H3 in H. cbn [bind] in H. rewrite H4 in H. cbn [bind] in H.
  change (vt_ltb (0, 2)%N (0, 3)%N) with true in H. cbv iota in H.
  destruct (ComposeId.get_date_type_respin id) as [r|e] eqn:E; cbn [bind] in H; [|discriminate].
  exists r. split; [reflexivity|].
  destruct (p_dtr r) as [[date ty'] respin] eqn:Ep.
  inv_bind H as final0 G. 
  match type of H with (check ?v; _) = _ => destruct v as [[]|e] eqn:Hv; cbn [bind] in H; [|discriminate] end.
  injection H as <-. cbn. repeat split; reflexivity.
Qed.
Print Assumptions C05_legacy_compose_uses_id_decoder.

(* composeinfo, whole document: once an object is written, the re-loaded object is the same (path tables as written) and the
   second write is the same document - conversion happens once.  The hypotheses are those of C01 (normal form, pairwise
   distinct UIDs); that the object was loaded (from whatever version) is not used. *)
From PM Require Import Model.ComposeInfo Proofs.ForestFlat Proofs.CiRoundtrip.
Theorem C05_composeinfo_conversion_happens_once :
  forall doc x doc', load_ci doc = Ok x -> ci_normal x -> NoDup (forest_uids (ci_variants x)) -> dump_ci x = Ok doc' ->
  load_ci doc' = Ok (wp_ci x) /\ dump_ci (wp_ci x) = Ok doc'.
Proof.
  intros doc x doc' _ Hn Hd Hw. split; [exact (ci_roundtrip x doc' Hn Hd Hw)|].
  rewrite ci_second_write; [exact Hw|]. destruct Hn as (_ & _ & (Hf & _)). exact Hf.
Qed.
Print Assumptions C05_composeinfo_conversion_happens_once.
