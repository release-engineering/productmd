(* C15 - compose IDs encode date, type and respin recoverably *)
From PM Require Import Base.PyVal Base.Regex Model.ComposeId Proofs.ComposeIdProofs Gen.Tables.

(* the created id starts with release short, version and (unless ga) type *)
Theorem C15_prefix :
  forall a id, create_compose_id a = Ok id ->
  startswith id (r_short a ++ c_dash :: r_version a ++ rel_type_suffix (r_type a)) = true.
Proof. exact composeid_prefix. Qed.
Print Assumptions C15_prefix.

(* ... passes the library's own compose-id validation (the regenerated pattern) *)
Theorem C15_self_valid :
  forall a id, create_compose_id a = Ok id ->
  ~ In c_nl (cid_prefix a) -> length (c_date a) = 8%nat -> forallb is_digit (c_date a) = true ->
  compose_id_valid id = true.
Proof. exact composeid_self_valid. Qed.
Print Assumptions C15_self_valid.

(* ... and decodes to exactly the date, compose type and respin it was created from,
   for every release / base product / variant shape, whenever the respin has fewer than 8 digits *)
Theorem C15_decode :
  forall a id, create_compose_id a = Ok id ->
  ~ In c_nl (cid_prefix a) -> length (c_date a) = 8%nat -> forallb is_digit (c_date a) = true ->
  (c_respin a < 10 ^ 7)%N ->
  get_date_type_respin id = Ok (Some (c_date a, c_type a, c_respin a)).
Proof. exact composeid_decode. Qed.
Print Assumptions C15_decode.

(* the property as stated (respins below 10^8) is FALSE of the code: finding K1 *)
Theorem C15_decode_refuted :
  exists a id, create_compose_id a = Ok id /\ (c_respin a < 10 ^ 8)%N /\ length (c_date a) = 8%nat /\
               get_date_type_respin id <> Ok (Some (c_date a, c_type a, c_respin a)).
Proof. exact composeid_decode_refuted. Qed.
Print Assumptions C15_decode_refuted.

(* every compose type can be encoded, and the encoder and decoder tables agree *)
Theorem C15_tables_agree :
  (forall t, In t COMPOSE_TYPES -> exists sfx, compose_type_suffix t = Ok sfx) /\
  (forall t sfx, assoc t COMPOSE_TYPE_SUFFIX_FN = Some (Some sfx) ->
     (sfx = [] /\ t = production) \/
     (exists lw, sfx = c_dot :: lw /\ lw <> [] /\ forallb is_lower lw = true /\ assoc lw COMPOSE_TYPE_SUFFIXES = Some t)).
Proof.
  split; [|exact enc_dec_entry]. intros t H.
  assert (Hok : forallb (fun t => match compose_type_suffix t with Ok _ => true | Err _ => false end) COMPOSE_TYPES = true)
    by (vm_compute; reflexivity).
  rewrite forallb_forall in Hok. specialize (Hok _ H). destruct (compose_type_suffix t) as [sfx|]; [eauto|discriminate].
Qed.
Print Assumptions C15_tables_agree.

(* the decoder table is exactly the documented suffix set {n, nightly, t, test, ci, d} *)
Theorem C15_suffix_table :
  forallb (fun p => match assoc (fst p) COMPOSE_TYPE_SUFFIXES with Some t => str_eqb t (snd p) | None => false end) doc_suffixes = true /\
  forallb (fun p => mem_str (fst p) (map fst doc_suffixes)) COMPOSE_TYPE_SUFFIXES = true.
Proof. vm_compute. auto. Qed.
Print Assumptions C15_suffix_table.

(* an unknown suffix is rejected (the hypothesis on find_last: no window of 8 digits begins after the first character of the date) *)
Theorem C15_unknown_suffix :
  forall pre date lw rest,
  ~ In c_nl pre -> length date = 8%nat -> forallb is_digit date = true ->
  lw <> [] -> forallb is_lower lw = true ->
  (match rest with [] => True | y :: _ => is_lower y = false end) -> ~ In c_nl rest ->
  find_last (tl (date ++ c_dot :: lw ++ rest)) = None ->
  assoc lw COMPOSE_TYPE_SUFFIXES = None ->
  get_date_type_respin (pre ++ date ++ c_dot :: lw ++ rest) = Err ValueError.
Proof. exact decode_unknown_suffix. Qed.
Print Assumptions C15_unknown_suffix.
