(* C03 - rpms, modules and extra-files manifests survive a write/read cycle unchanged *)
From PM Require Import Base.PyVal Base.Obj Base.Json Model.Common Model.Manifests Model.ManifestDocs Proofs.CommonProofs
  Proofs.ManifestDocsProofs.

(* whatever mapping the manifest holds (in particular any mapping built by add calls, whose
   layout C12 characterises) is read back exactly, with the compose section intact *)
Theorem C03_rpms_roundtrip :
  forall c p d, compose_normal c -> dump_rpms c p = Ok d -> load_rpms d = Ok (c, p).
Proof. exact rpms_doc_roundtrip. Qed.
Print Assumptions C03_rpms_roundtrip.

Theorem C03_modules_roundtrip :
  forall c p d, compose_normal c -> dump_modules c p = Ok d -> load_modules d = Ok (c, p).
Proof. intros c p d. exact (load_plain_roundtrip _ (F"modules") _ c p d modules_container_valid eq_refl). Qed.
Print Assumptions C03_modules_roundtrip.

Theorem C03_extra_roundtrip :
  forall c p d, compose_normal c -> dump_extra c p = Ok d -> load_extra d = Ok (c, p).
Proof. intros c p d. exact (load_plain_roundtrip _ (F"extra_files") _ c p d extra_container_valid eq_refl). Qed.
Print Assumptions C03_extra_roundtrip.

(* writing the re-read manifest reproduces the document, hence the bytes *)
Theorem C03_rpms_second_dump :
  forall c p d c' p', compose_normal c -> dump_rpms c p = Ok d -> load_rpms d = Ok (c', p') ->
  dump_rpms c' p' = Ok d /\ (forall d', dump_rpms c' p' = Ok d' -> print_json d' = print_json d).
Proof.
  intros c p d c' p' Hn Hd Hl. rewrite (rpms_doc_roundtrip c p d Hn Hd) in Hl. injection Hl as <- <-.
  split; [exact Hd|]. intros d' Hd'. rewrite Hd in Hd'. injection Hd' as <-. reflexivity.
Qed.
Print Assumptions C03_rpms_second_dump.

(* instance for manifests produced by add histories: the typed mapping built by Rpms.add is what comes back *)
Theorem C03_rpms_built_by_add :
  forall c (m : rpms_t) d, compose_normal c -> dump_rpms c (rpms_json m) = Ok d -> load_rpms d = Ok (c, rpms_json m).
Proof. intros c m d. exact (rpms_doc_roundtrip c (rpms_json m) d). Qed.
Print Assumptions C03_rpms_built_by_add.
