(* C10 - source content is always filed under binary architectures *)
From PM Require Import Base.PyVal Base.Obj Model.Common Model.Images Model.Manifests Model.ManifestDocs
     Proofs.ListLemmas Proofs.ImagesProofs Proofs.ManifestDocsProofs Proofs.ArchProofs Proofs.RefileProofs
     Proofs.DocArches Gen.Tables.

(* an accepted add files under a known binary architecture (which adds are accepted: C09_add_accepts_iff, C12_rpms_add_accepts_iff) *)
Theorem C10_images_add_keeps_arch_ok :
  forall vt c v a img c', keys2_ok c -> images_add vt c v a img = Ok c' -> keys2_ok c'.
Proof. exact images_add_arch_ok. Qed.
Print Assumptions C10_images_add_keeps_arch_ok.

(* every images manifest reachable by any sequence of add calls has only known binary arch keys *)
Theorem C10_images_reach_arch_ok : forall vt ops, keys2_ok (fold_left (apply_add vt) ops []).
Proof. exact images_reach_arch_ok. Qed.
Print Assumptions C10_images_reach_arch_ok.

(* the loader files every image (src ones of a <= 1.1 document under each non-src arch of the variant) through add *)
Theorem C10_add_loaded_arch_ok :
  forall vt doc_arches c v a img c', keys2_ok c -> add_loaded vt doc_arches c v a img = Ok c' -> keys2_ok c'.
Proof. intros vt doc_arches c v a img. apply add_loaded_pres. intros c0 a0 c1. apply images_add_arch_ok. Qed.
Print Assumptions C10_add_loaded_arch_ok.

Theorem C10_added_image_is_in_its_cell :
  forall vt c v a img c', images_add vt c v a img = Ok c' ->
  exists arches imgs, assoc v c' = Some arches /\ assoc a arches = Some imgs /\ In (fst img) (map fst imgs).
Proof. exact in_cell_after_add. Qed.
Print Assumptions C10_added_image_is_in_its_cell.

(* rpms: every manifest reachable by add calls has only known binary arch keys *)
Theorem C10_rpms_reach_arch_ok : forall ops, keys2_ok (fold_left apply_rpms_add ops []).
Proof.
  intros ops. apply fold_left_inv; [|exact keys2_ok_nil].
  intros m [[[[[[v a] n] p] sg] c] sr] _ Hm. unfold apply_rpms_add.
  destruct (rpms_add m v a n p sg c sr) eqn:E; [exact (rpms_add_arch_ok _ _ _ _ _ _ _ _ _ Hm E)|exact Hm].
Qed.
Print Assumptions C10_rpms_reach_arch_ok.

(* ... and so has every manifest converted from format 0.3, since the 0.3 reader files everything through add *)
Theorem C10_rpms_03_arch_ok : forall manifest m, deser_rpms_0_3 manifest = Ok m -> keys2_ok m.
Proof. intros manifest m. apply deser_rpms_0_3_pres; [exact rpms_add_arch_ok|exact keys2_ok_nil]. Qed.
Print Assumptions C10_rpms_03_arch_ok.

(* the positive clause. Images: a source image of a <= 1.1 document is filed under EACH non-src architecture its variant lists
   (and nothing already filed is lost) *)
Theorem C10_src_image_refiled_under_each_binary_arch :
  forall vt doc_arches c v img c',
  vt_leb vt (1, 1) = true -> add_loaded vt doc_arches c v s_src img = Ok c' ->
  (forall a, In a doc_arches -> a <> s_src -> in_cell c' v a (fst img)) /\
  (forall v1 a1 i, in_cell c v1 a1 i -> in_cell c' v1 a1 i).
Proof. exact add_loaded_refiles. Qed.
Print Assumptions C10_src_image_refiled_under_each_binary_arch.

(* Rpms, format 0.3: a source package listed in the variant's 'src' table is filed, under its canonical name, under each binary
   architecture that lists at least one package built from it *)
Theorem C10_rpms_03_source_refiled :
  forall man m, deser_rpms_0_3 man = Ok m ->
  forall variants v vd arches a ad srpms sr rd srctab sd rpms,
    items man = Ok variants -> In (v, vd) variants ->
    items vd = Ok arches -> In (a, ad) arches -> a <> s_src ->
    items ad = Ok srpms -> In (sr, rd) srpms ->
    dget_default vd s_src (PDict []) = Ok srctab -> dget_default srctab sr PNone = Ok sd -> sd <> PNone ->
    items rd = Ok rpms -> rpms <> [] ->
    src_filed sr v a m.
Proof. exact rpms_03_refiles. Qed.
Print Assumptions C10_rpms_03_source_refiled.

(* "unknown name" is measured against the documented architecture table: every documented name is in the regenerated one *)
Theorem C10_documented_architectures_are_known :
  forall a, In a DOC_RPM_ARCHES -> mem_str a RPM_ARCHES = true.
Proof. exact documented_arch_is_known. Qed.
Print Assumptions C10_documented_architectures_are_known.
