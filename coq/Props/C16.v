(* C16 - checksums recorded in metadata are the true digests of the right files *)
From PM Require Import Base.PyVal Base.Obj Model.Common Model.Checksums Model.TreeInfo Proofs.ChecksumsProofs.

(* feeding a hash object chunk by chunk - any chunk sizes, any number of chunks, empty ones included - gives the state
   of feeding the whole content at once (the streaming law of hashlib objects is the hypothesis, visible in the statement) *)
Theorem C16_digest_chunking :
  forall (state : Type) (init : state) (update : state -> str -> state),
  (forall h a b, update (update h a) b = update h (a ++ b)) -> (forall h, update h [] = h) ->
  forall chunks, feed state init update chunks = update init (concat chunks).
Proof. exact digest_chunking. Qed.
Print Assumptions C16_digest_chunking.

(* the read loop visits the whole file: the chunks concatenate to the content, for every chunk size *)
Theorem C16_chunks_cover_file :
  forall n, n <> O -> forall fuel (s : str), (length s <= fuel)%nat -> concat (chunks_of fuel n s) = s.
Proof. exact chunks_concat. Qed.
Print Assumptions C16_chunks_cover_file.

Theorem C16_add_refuses_absolute : forall cs p ty v, checksums_add cs (c_slash :: p) ty v = Err ValueError.
Proof. exact checksums_add_refuses_absolute. Qed.
Print Assumptions C16_add_refuses_absolute.

Theorem C16_add_records_under_normpath :
  forall cs p ty v cs', checksums_add cs p ty v = Ok cs' ->
  assoc (normpath p) cs' = Some (ty, v) /\ forall q, q <> normpath p -> assoc q cs' = assoc q cs.
Proof. exact checksums_add_records. Qed.
Print Assumptions C16_add_records_under_normpath.

(* a [checksums] value without a colon is typed by its own length (32/40/64) and rejected otherwise: no entry inherits
   another entry's type ('type:value' entries: C04_typed_checksum_roundtrip) *)
Theorem C16_typed_bare :
  forall v, ~ In c_colon v ->
  typed_checksum v =
    if Nat.eqb (length v) 32 then Ok (PStr (lit "md5"), PStr v)
    else if Nat.eqb (length v) 40 then Ok (PStr (lit "sha1"), PStr v)
    else if Nat.eqb (length v) 64 then Ok (PStr (lit "sha256"), PStr v)
    else Err ValueError.
Proof. exact typed_checksum_bare. Qed.
Print Assumptions C16_typed_bare.

(* an image's recorded checksum is never silently replaced *)
Theorem C16_add_checksum_stable :
  forall cs ty value cs' r t v, image_add_checksum cs ty value = Ok (cs', r) -> assoc t cs = Some v -> assoc t cs' = Some v.
Proof. exact add_checksum_stable. Qed.
Print Assumptions C16_add_checksum_stable.

Theorem C16_add_checksum_conflict :
  forall cs ty value ex, assoc ty cs = Some ex -> truthy value = true -> py_eq value ex = false ->
  image_add_checksum cs ty value = Err ValueError.
Proof. exact add_checksum_conflict. Qed.
Print Assumptions C16_add_checksum_conflict.

(* after writing and reading a treeinfo, every path maps to exactly the algorithm and value given for it in the file, and no
   path carries a checksum that was written for another: the whole-section statement over the writer's table *)
From PM Require Import Base.Ini Proofs.TreeInfoChecksums.
Theorem C16_written_checksums_are_read_back_per_path :
  forall x mv t x', ser_ti x mv = Ok t -> deser_ti t = Ok x' -> NoDup (map fst (ti_checksums x)) ->
  (forall c, In c (ti_checksums x) -> exists tc, typed_checksum (ck_text c) = Ok tc /\ assoc (fst c) (ti_checksums x') = Some tc) /\
  (forall p, ~ In p (map fst (ti_checksums x)) -> assoc p (ti_checksums x') = None).
Proof. exact checksums_read_back. Qed.
Print Assumptions C16_written_checksums_are_read_back_per_path.
